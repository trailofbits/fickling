(* C18 -- CLI on stacked pickles: injection is local, decompilation is one program whose
   per-pickle variables are disjoint.
   Model: model/Cli.v (+ Interp.v, Codec.v); lemmas: proofs/CliProofs.v.  All statements quantify
   over all stacks (any length), all pickles / opcode programs and all targets; no bound.  Whether
   the printed text is syntactically one Python program is the Python parser's business: that part
   is differential only (harness/c18.py: compile() + exec). *)
From Coq Require Import List String ZArith.
From Coq.Strings Require Import Byte.
From Verif Require Import Base Ops Interp Codec CodecProofs Cli CliProofs.
Import ListNotations.
Local Open Scope nat_scope.
Local Open Scope list_scope.

(* --inject, for every pickle type, injection function, serialiser, stack and target k >= 0:
   - k < n and the injection succeeds: exactly n chunks are written, chunk k is the dump of the
     injected k-th pickle, every other chunk j is the dump of the untouched j-th pickle; status 0;
     stderr carries at most the not-STOP warning;
   - k < n and the injection raises: what was written is exactly the verbatim prefix 0..k-1 and the
     exception propagates (OBSERVATION: bytes are emitted before this failure; the property text
     only promises silence for an out-of-range target);
   - k >= n: nothing is written, stderr is written, the status is 1 (non-zero). *)
Theorem C18_inject_local : forall (P B : Type) (inject : P -> res P) (dumps : P -> B) (stop : P -> bool)
    (ps : list P) (k : nat),
  (k < List.length ps ->
     forall p, nth_error ps k = Some p ->
     (forall p', inject p = Ok p' ->
        let out := cli_inject inject dumps stop ps (Z.of_nat k) in
        o_stdout out = map dumps (firstn k ps) ++ [dumps p'] ++ map dumps (skipn (S k) ps) /\
        List.length (o_stdout out) = List.length ps /\
        nth_error (o_stdout out) k = Some (dumps p') /\
        (forall j, j <> k -> nth_error (o_stdout out) j = option_map dumps (nth_error ps j)) /\
        o_status out = Exit 0 /\ o_stderr out = negb (stop p)) /\
     (forall e, inject p = Err e ->
        let out := cli_inject inject dumps stop ps (Z.of_nat k) in
        o_stdout out = map dumps (firstn k ps) /\ o_status out = Raised e /\ o_stderr out = true)) /\
  (List.length ps <= k ->
     let out := cli_inject inject dumps stop ps (Z.of_nat k) in
     o_stdout out = [] /\ o_status out = Exit 1 /\ status_ok (o_status out) = false /\
     o_stderr out = true).
Proof.
  intros P B inject dumps stop ps k. split.
  - intros L p N. split.
    + intros p' I. cbv zeta. rewrite (inject_in_range _ _ inject dumps stop _ _ _ N), I.
      cbn [o_stdout o_status o_stderr].
      split; [rewrite StepFacts.set_nth_split, map_app by exact L; reflexivity|].
      split; [rewrite map_length; apply StepFacts.set_nth_length|].
      split; [rewrite nth_error_map, StepFacts.nth_error_set_nth, Nat.eqb_refl by exact L; reflexivity|].
      split; [|split; reflexivity].
      intros j NE. rewrite !nth_error_map, StepFacts.nth_error_set_nth by exact L.
      destruct (Nat.eqb_spec j k); [contradiction|reflexivity].
    + intros e I. cbv zeta. rewrite (inject_in_range _ _ inject dumps stop _ _ _ N), I. repeat split.
  - intros L. cbv zeta. unfold cli_inject.
    destruct (Z.of_nat k >=? Z.of_nat (List.length ps))%Z eqn:E; [|Lia.lia]. repeat split.
Qed.

(* ... composed with C06's partition theorem: when the input stack is what StackedPickle.load returns
   for n complete pickles b_0..b_{n-1} and the injected pickle serialises to a complete pickle b',
   the bytes written re-parse (StackedPickle.load) to exactly n pickles whose dumps are
   b_0 .. b_{k-1}, b', b_{k+1} .. b_{n-1}. *)
Theorem C18_inject_reparse : forall (inject : list opc -> res (list opc)) stop items k p' b' q',
  Forall (fun bp => complete (fst bp) (snd bp)) items ->
  k < List.length items ->
  (forall p, nth_error (shift_parts 0 items) k = Some p -> inject p = Ok p') ->
  Codec.dumps p' = Ok b' -> complete b' q' ->
  let out := cli_inject inject dumps_bytes stop (shift_parts 0 items) (Z.of_nat k) in
  let items' := firstn k items ++ (b', q') :: skipn (S k) items in
  o_status out = Exit 0 /\
  o_stdout out = map fst items' /\
  stacked_load KBytes (List.concat (o_stdout out)) 0
    = LOk (shift_parts 0 items', List.length (List.concat (o_stdout out))) /\
  List.length (shift_parts 0 items') = List.length items /\
  Forall2 (fun part bp => Codec.dumps part = Ok (fst bp)) (shift_parts 0 items') items'.
Proof.
  intros inject stop items k p' b' q' F L I D C. cbv zeta.
  destruct (shift_parts_spec items 0 F) as [Len F2].
  destruct (nth_error (shift_parts 0 items) k) as [p|] eqn:N;
    [|apply nth_error_None in N; Lia.lia].
  rewrite (inject_in_range _ _ inject dumps_bytes stop _ _ _ N), (I p eq_refl).
  cbn [o_status o_stdout]. rewrite <- (StepFacts.set_nth_split k (b', q') items L).
  assert (E : map dumps_bytes (set_nth k p' (shift_parts 0 items))
              = map fst (set_nth k (b', q') items)).
  { rewrite !StepFacts.map_set_nth, (forall2_dumps_map _ _ F2). unfold dumps_bytes. rewrite D. reflexivity. }
  rewrite E. split; [reflexivity|]. split; [reflexivity|].
  destruct (stacked_bytes_partition (set_nth k (b', q') items)) as (S1 & S2 & S3).
  - intros E0. apply (f_equal (@List.length _)) in E0. rewrite StepFacts.set_nth_length in E0. cbn in E0. Lia.lia.
  - apply StepFacts.Forall_set_nth; assumption.
  - rewrite S2, StepFacts.set_nth_length. auto.
Qed.

(* decompile / --trace, for every stack of opcode programs none of which imports a global under a
   spelling fickling reserves for itself (_var<digits>, result<digits>):
   - segment i is numbered i and its interpreter starts at the variable counter where segment i-1
     stopped (0 for the first);
   - per segment (seg_scoped): the _var indices it assigns are exactly first, first+1, ..., next-1,
     once each, in that order; every _var mentioned in a statement's own expression tree was assigned
     by an earlier statement of the same segment; every _var mentioned anywhere (statements and the
     final contents of the list/set/dict displays) lies in [first, next); the only reserved
     spellings it binds are those variables and result<i>; the only reserved spellings it reads are
     those variables;
   - across segments: the ranges are increasing and disjoint (next_i <= first_j for i < j) and any
     name that occurs (bound or read) in two different segments is not a reserved spelling -- no
     variable or result name of one pickle is reused by another;
   - either every program decompiled (status 0, one segment per pickle), or pickle number
     |segments| raised and exactly the earlier segments were printed. *)
Theorem C18_decompile_disjoint : forall ps segs st,
  Forall (fun p => reserved_free p = true) ps ->
  cli_decompile ps = (segs, st) ->
  seg_chain 0 0 segs /\
  (forall g, In g segs -> seg_scoped g) /\
  (forall l1 g1 l2 g2 l3, segs = l1 ++ g1 :: l2 ++ g2 :: l3 ->
     sg_next g1 <= sg_first g2 /\ sg_index g1 < sg_index g2 /\
     forall x, In x (seg_binds g1 ++ seg_reads g1) -> In x (seg_binds g2 ++ seg_reads g2) ->
               is_reserved x = false) /\
  (st = Exit 0 /\ List.length segs = List.length ps /\
     Forall2 (fun g p => run_from p (fk_init (sg_first g)) = Ok (sg_state g)) segs ps
   \/ exists e, st = Raised e /\ List.length segs < List.length ps /\
        Forall2 (fun g p => run_from p (fk_init (sg_first g)) = Ok (sg_state g))
                segs (firstn (List.length segs) ps)).
Proof.
  intros ps segs st F H. destruct (decompile_from_spec _ _ _ _ _ H) as (C & Alt).
  assert (Fi : Forall seg_inv segs).
  { apply Forall_forall. intros g Ig. destruct (decompile_from_each _ _ _ _ _ H g Ig) as (p & Ip & Rp).
    exists (pc_of p). apply run_scoped; [|exact Rp]. exact (proj1 (Forall_forall _ _) F p Ip). }
  split; [exact C|]. split.
  { intros g Ig. apply seg_inv_scoped. exact (proj1 (Forall_forall _ _) Fi g Ig). }
  split; [|exact Alt].
  intros l1 g1 l2 g2 l3 E. destruct (segs_ordered _ _ _ _ _ _ _ _ C Fi E) as [A B].
  split; [exact A|]. split; [exact B|]. exact (segs_no_reuse _ _ _ _ _ _ _ _ C Fi E).
Qed.

(* each pickle's value is bound to its own result name: a program ending in STOP (every parsed
   pickle does, C06_stacked_sound) that decompiles ends with `result<i> = ...` *)
Theorem C18_result_bound : forall ps segs st,
  cli_decompile ps = (segs, st) ->
  Forall (fun p => exists q, p = q ++ [OStop]) ps ->
  forall g, In g segs ->
    (exists e r, seg_body g = r ++ [SResult e]) /\ In (result_name (sg_index g)) (seg_binds g).
Proof.
  intros ps segs st H F g Ig. destruct (decompile_from_each _ _ _ _ _ H g Ig) as (p & Ip & Rn).
  destruct (proj1 (Forall_forall _ _) F p Ip) as (q & ->).
  destruct (run_from_result _ _ _ Rn) as (e & r & Eb); [cbn; discriminate|apply (run_ends_stopped _ _ _ Rn)|].
  unfold seg_binds, seg_body. rewrite Eb. cbn [List.rev].
  split; [eauto|]. rewrite flat_map_app. apply in_or_app. right. left. reflexivity.
Qed.

(* the reserved spellings are what the theorem says they are *)
Theorem C18_names : forall i j,
  is_reserved (var_name i) = true /\ is_reserved (result_name i) = true /\
  (var_name i = var_name j -> i = j) /\ (result_name i = result_name j -> i = j) /\
  var_name i <> result_name j.
Proof.
  intros i j.
  exact (conj (var_name_reserved i) (conj (result_name_reserved i)
        (conj (var_name_inj i j) (conj (result_name_inj i j) (var_not_result i j))))).
Qed.

Definition g_ (m n : string) := OGlobal m n.
(* two pickles that each make calls: os.getcwd() twice / a STACK_GLOBAL call with a list argument *)
Definition ex_p0 : list op :=
  [g_ "os" "getcwd"; OEmptyTuple; OReduce; g_ "os" "getcwd"; OEmptyTuple; OReduce; OTuple2; OStop].
Definition ex_p1 : list op :=
  [OConst (CStr "verif_sink"); OConst (CStr "record"); OStackGlobal; OEmptyList; OConst (CInt 1);
   OAppend; OTuple1; OReduce; OStop].

Example C18_nonvacuous_decompile :
  forallb reserved_free [ex_p0; ex_p1; ex_p0] = true /\
  exists g0 g1 g2, cli_decompile [ex_p0; ex_p1; ex_p0] = ([g0; g1; g2], Exit 0) /\
    (sg_first g0, sg_next g0, sg_first g1, sg_next g1, sg_first g2, sg_next g2) = (0, 2, 2, 3, 3, 5) /\
    seg_assigns g2 = [3; 4] /\
    seg_binds g1 = ["record"; var_name 2; result_name 1]%string.
Proof.
  split; [vm_compute; reflexivity|]. eexists. eexists. eexists.
  split; [vm_compute; reflexivity|]. vm_compute. repeat split.
Qed.

(* a program outside the hypothesis: it imports a global spelled _var0 *)
Example C18_reserved_free_is_a_restriction :
  reserved_free [g_ "m" "_var0"; OStop] = false /\ reserved_free [g_ "m" "result1"; OStop] = false /\
  reserved_free [g_ "numpy" "result_type"; OConst (CStr "result0"); OStop] = true /\
  reserved_free [OConst (CStr "m"); OConst (CStr "result0"); OStackGlobal; OStop] = false.
Proof. vm_compute. repeat split. Qed.

Definition ex_b : list byte :=
  [x80; x02; x5d; x71; x00; x28; x4b; x01; x58; x01; x00; x00; x00; x61; x65; x2e].
Definition ex_none : list byte := [x4e; x2e].

Example C18_nonvacuous_reparse :
  exists pb pn p' b' q',
    let items := [(ex_b, pb); (ex_none, pn); (ex_b, pb)] in
    Forall (fun bp => complete (fst bp) (snd bp)) items /\
    (forall p, nth_error (shift_parts 0 items) 1 = Some p -> (fun x => Ok x) p = Ok p') /\
    Codec.dumps p' = Ok b' /\ complete b' q'.
Proof.
  eexists. eexists. eexists. eexists. eexists. cbv zeta.
  split.
  { repeat constructor; unfold complete; cbn [fst snd]; vm_compute; reflexivity. }
  split; [intros p H; vm_compute in H; inversion H; reflexivity|].
  split; [vm_compute; reflexivity|]. unfold complete. vm_compute. reflexivity.
Qed.

(* Observations: outside the property's quantifier, not alarms. *)
(* a negative --inject-target is not range-checked.  Python's slicing then makes -1 special:
   stack[:-1], the injected stack[-1], then stack[0:] -- the whole stack again, with the element
   that was just mutated in place: 2n pickles are written.  Target -2 happens to be correct;
   a target below -n raises IndexError after writing nothing. *)
Example C18_negative_target_observation :
  let inj := fun p : nat => Ok (100 + p) in
  let run := cli_inject inj (fun p => p) (fun _ => true) [10; 11; 12] in
  o_stdout (run (-1)%Z) = [10; 11; 112; 10; 11; 112] /\ o_status (run (-1)%Z) = Exit 0 /\
  o_stdout (run (-2)%Z) = [10; 111; 12] /\
  o_stdout (run (-3)%Z) = [110; 11; 12] /\
  o_stdout (run (-4)%Z) = [] /\ o_status (run (-4)%Z) = Raised EIndex.
Proof. vm_compute. repeat split. Qed.

(* "assigned earlier" is about a statement's own expression tree.  A list display captured by an
   earlier statement and extended later is printed with its final contents (finding D15 of
   C03/C05, a different property): here `_var0 = f([_var1])` precedes `_var1 = f()`.  The variable
   still belongs to the same segment, which is what C18 is about. *)
Example C18_display_mutated_after_capture_observation :
  let p := [OEmptyList; OPut 0; g_ "m" "f"; OGet 0; OTuple1; OReduce; OPop;
            g_ "m" "f"; OEmptyTuple; OReduce; OAppend; OStop] in
  reserved_free p = true /\
  exists s, run_from p (fk_init 0) = Ok s /\
    List.rev (body s) = [SImport "m" "f"; SAssignV 0 (ECall (EName "f") [ENode 0] None);
                         SImport "m" "f"; SAssignV 1 (ECall (EName "f") [] None);
                         SResult (ENode 0)]%string /\
    nodes s = [NList [EVar 1]].
Proof. split; [vm_compute; reflexivity|]. eexists. split; [vm_compute; reflexivity|]. vm_compute. split; reflexivity. Qed.

Print Assumptions C18_inject_local.
Print Assumptions C18_inject_reparse.
Print Assumptions C18_decompile_disjoint.
Print Assumptions C18_result_bound.
Print Assumptions C18_names.
