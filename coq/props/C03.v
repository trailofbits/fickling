(* C03 -- No hidden execution: everything the VM would import or call is in the decompile. *)
From Coq Require Import List String Bool.
From Verif Require Import Base Ops OpTable Interp RefVM SimRel SimProofs.
Import ListNotations.
Local Open Scope nat_scope.

(* For every program both machines accept (any length; whatever later POPs, DUPs, memoises or
   strands a value): the module body and the reference VM's event log are aligned one-to-one and in
   order by [rel_events]: each find_class of a non-builtins module is a `from m import n`, each call
   (REDUCE / INST / OBJ / NEWOBJ / NEWOBJ_EX) is a `_var<i> = callee(args, **kw)` statement whose
   callee and arguments denote the VM's, each persistent load and each BUILD likewise, and the
   remaining statements (aliases, item assignments on stand-ins, `result = ...`) are no events. *)
Theorem C03_events_aligned : forall p first_var f' v',
  run_from p (fk_init first_var) = Ok f' -> vrun_from p vm_init = Ok v' ->
  exists al, rel_events al (body f') (log v') /\ Forall (fun y => callable y = true) al.
Proof. exact run_aligned. Qed.

(* consequences in the property's own words *)
Theorem C03_every_call_present : forall p first_var f' v' callee args kw k,
  run_from p (fk_init first_var) = Ok f' -> vrun_from p vm_init = Ok v' ->
  In (EvCall callee args kw k) (log v') ->
  exists al i fe es kwe,
    In (SAssignV i (ECall fe es kwe)) (body f') /\
    rel al fe callee /\ Forall2 (rel al) es args /\ rel_opt al kwe kw /\
    nth_error al i = Some (VObj k).
Proof.
  intros p n f' v' callee args kw k Hs Hv Hin.
  destruct (run_aligned p n _ _ Hs Hv) as (al & Re & _).
  destruct (events_covered _ _ _ Re _ Hin) as (i & fe & es & kwe & H).
  exists al, i, fe, es, kwe. exact H.
Qed.

Theorem C03_every_import_present : forall p first_var f' v' m n,
  run_from p (fk_init first_var) = Ok f' -> vrun_from p vm_init = Ok v' ->
  In (EvResolve m n) (log v') -> is_builtins m = false -> In (SImport m n) (body f').
Proof. exact resolved_is_imported. Qed.

Theorem C03_every_setstate_present : forall p first_var f' v' obj st,
  run_from p (fk_init first_var) = Ok f' -> vrun_from p vm_init = Ok v' ->
  In (EvSetState obj st) (log v') ->
  exists al i ste, In (SExpr (ECall (EAttr (EVar i) "__setstate__") [ste] None)) (body f') /\
                   nth_error al i = Some obj /\ rel al ste st.
Proof.
  intros p fv f' v' obj st Hs Hv Hin.
  destruct (run_aligned p fv _ _ Hs Hv) as (al & Re & _).
  destruct (events_covered _ _ _ Re _ Hin) as (i & ste & H). exists al, i, ste. exact H.
Qed.

(* an opcode fickling cannot model is refused, never skipped: every opcode of the live pickletools
   table either belongs to a modelled family and has a class with run(), or the interpreter / parser
   raises (class without run -> NotImplementedError at run; no class -> at parse) *)
Definition table_refusal_ok : bool :=
  forallb (fun row =>
    let '(_, (name, (_, (_, (has_class, has_run))))) := row in
    match family name with
    | Some _ => has_class && has_run
    | None => negb (has_class && has_run)
    end) op_table.
Theorem C03_refuses_unmodelled : table_refusal_ok = true /\ step ONoRun (fk_init 0) = Err ENotImpl.
Proof. split; [vm_compute; reflexivity | reflexivity]. Qed.

(* non-vacuity: exec("...") made by OBJ and immediately popped (decompiled to `result = None` on the
   pinned tree) -- the call statement is in the body *)
Definition obj_pop : list op :=
  [OMark; OGlobal "__builtin__" "exec"; OConst (CStr "x"); OObj; OPop; OConst CNone; OStop].
Example C03_nonvacuous_obj_pop :
  match run obj_pop, vrun obj_pop with
  | Ok f, Ok v =>
      body f = [SResult (EConst CNone); SAssignV 0 (ECall (EName "exec") [EConst (CStr "x")] None)] /\
      log v = [EvCall (VGlobal "__builtin__" "exec") [VConst (CStr "x")] None 0;
               EvResolve "__builtin__" "exec"]
  | _, _ => False
  end.
Proof. vm_compute. auto. Qed.

Print Assumptions C03_events_aligned.
Print Assumptions C03_every_call_present.
Print Assumptions C03_every_import_present.
Print Assumptions C03_every_setstate_present.
Print Assumptions C03_refuses_unmodelled.
