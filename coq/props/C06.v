(* C06 -- Parse / re-serialise is byte-exact; stacked pickles partition the input.
   Model: model/Codec.v; lemmas: proofs/CodecProofs.v.
   All statements quantify over ALL byte lists and ALL start offsets; no length bound. *)
From Coq Require Import List String ZArith NArith.
From Coq.Strings Require Import Byte.
From Verif Require Import Base OpTable Codec CodecProofs.
Import ListNotations.
Local Open Scope nat_scope.
Local Open Scope list_scope.

(* What the theorems need of the opcode table, regenerated from the live pickletools / fickling
   tables on every run: every reader is one the model knows; the opcode genops stops at is the
   argument-less STOP; a positive arg.n -- the number of bytes Pickled.load reads at once -- is
   exactly what that opcode's reader consumes. *)
Theorem C06_table_obligations : forallb row_ok op_table = true.
Proof. exact op_table_ok. Qed.

(* The tokeniser: tokens are contiguous from the start offset, the last one is the one-byte STOP, no
   earlier one is, everything lies inside the data; the fuel never runs out. *)
Theorem C06_tokenize_sound : forall bs pos ts,
  tokenize bs pos = Ok ts ->
  chain bs pos ts /\
  (exists ts' tl, ts = ts' ++ [tl] /\ row_name (t_row tl) = "STOP"%string /\ t_len tl = 1 /\
                  forallb (fun t => negb (is_stop t)) ts' = true) /\
  pos < sum_len ts + pos <= List.length bs.
Proof.
  intros bs pos ts H. apply tokenize_inv in H.
  pose proof (genops_at_chain _ _ _ _ H) as C. pose proof (chain_sum_le _ _ _ C) as EB.
  destruct (genops_at_done _ _ _ H) as (a & tl & -> & NS & ST & _ & L1 & _ & NM).
  split; [exact C|]. split; [exists a, tl; auto|]. rewrite sum_len_app_one in *. Lia.lia.
Qed.

Theorem C06_no_fuel : forall bs pos,
  tokenize bs pos <> Err EFuel /\ stacked_stream bs pos <> LErr (LOther EFuel).
Proof. intros bs pos. exact (conj (tokenize_no_fuel bs pos) (stacked_no_fuel bs pos)). Qed.

(* The success domain of the parse: Pickled.load succeeds exactly on the streams on which the stock
   token loop reaches STOP and every opcode has a fickling class (one opcode per token, at the token's
   position); an opcode without a class is refused with NotImplementedError; a tokeniser ValueError
   becomes EmptyPickleError / PickleDecodeError (or NotImplementedError if an unsupported opcode came
   first).  So the hypothesis of the theorems below holds for EVERY stream that begins with a complete
   pickle over supported opcodes. *)
Theorem C06_accepts_complete : forall bs o ts,
  tokenize bs o = Ok ts ->
  (forallb (fun t => row_has_class (t_row t)) ts = true ->
     exists r, load_model KSeekable bs o = LOk r /\
               map o_row (l_ops r) = map t_row ts /\ map o_pos (l_ops r) = map t_pos ts) /\
  (forallb (fun t => row_has_class (t_row t)) ts = false -> load_model KSeekable bs o = LErr LNotImpl).
Proof.
  intros bs o ts H. apply tokenize_inv in H. unfold load_model. rewrite (load_stream_spec _ _ _ _ H).
  split; intros F; rewrite F; [|reflexivity].
  eexists. split; [reflexivity|]. cbn [l_ops]. rewrite !map_map. split; reflexivity.
Qed.

Theorem C06_rejects_incomplete : forall bs o e,
  tokenize bs o = Err e ->
  exists x, load_model KSeekable bs o = LErr x /\
            (e = EValue -> x = LEmpty \/ x = LDecode \/ x = LNotImpl).
Proof.
  intros bs o e H. unfold tokenize in H.
  destruct (genops_at bs o) as [ts [|e0]] eqn:G; [discriminate|]. inversion H; subst; clear H.
  unfold load_model. rewrite (load_stream_spec _ _ _ _ G).
  destruct (forallb _ ts); [|eexists; split; [reflexivity|auto]].
  destruct e; try (eexists; split; [reflexivity|discriminate]).
  destruct ts; eexists; (split; [reflexivity|auto]).
Qed.

(* Seekable stream at ANY offset o: whenever Pickled.load succeeds, dumps() is exactly the bytes
   bs[o, e); the parse starts at o and ends in a STOP whose end is e; the stream is left at e; what
   the caller can still read is exactly bs[e:]; nothing is lost: bs = bs[:o] ++ dumps ++ bs[e:]. *)
Theorem C06_dumps_exact : forall bs o r,
  load_model KSeekable bs o = LOk r ->
  dumps (l_ops r) = Ok (firstn (l_end r - o) (skipn o bs)) /\
  ends_in_stop (l_ops r) (l_end r) /\ starts_at (l_ops r) o /\
  o < l_end r <= List.length bs /\
  l_caller r = Some (l_end r) /\
  caller_rest bs r = Some (skipn (l_end r) bs) /\
  bs = firstn o bs ++ firstn (l_end r - o) (skipn o bs) ++ skipn (l_end r) bs.
Proof. exact seekable_exact. Qed.

(* bytes / bytearray *)
Theorem C06_dumps_exact_bytes : forall bs o r,
  load_model KBytes bs o = LOk r ->
  dumps (l_ops r) = Ok (firstn (l_end r) bs) /\
  ends_in_stop (l_ops r) (l_end r) /\ starts_at (l_ops r) 0 /\
  0 < l_end r <= List.length bs /\ l_caller r = None.
Proof. exact bytes_exact. Qed.

(* What follows a complete pickle does not influence its tokens or its parse, and what precedes
   it only shifts positions. *)
Theorem C06_prefix_determinism : forall pre b rest,
  (forall ts, tokenize b 0 = Ok ts ->
     tokenize (b ++ rest) 0 = Ok ts /\
     tokenize (pre ++ b ++ rest) (List.length pre) = Ok (map (shift_tok (List.length pre)) ts)) /\
  (forall r, load_model KSeekable b 0 = LOk r ->
     load_model KSeekable (pre ++ b ++ rest) (List.length pre) = LOk (shift_loaded (List.length pre) r) /\
     dumps (l_ops (shift_loaded (List.length pre) r)) = dumps (l_ops r)) /\
  (forall r o o', load_model KBytes b o = LOk r -> load_model KBytes (b ++ rest) o' = LOk r).
Proof.
  intros pre b rest.
  exact (conj (fun ts H => conj (tokenize_rest_irrelevant b rest ts H) (tokenize_prefix pre b rest ts H))
        (conj (fun r H => conj (seekable_prefix pre b rest r H) (dumps_shift (List.length pre) (l_ops r)))
              (fun r o o' H => bytes_rest_irrelevant b rest r o o' H))).
Qed.

(* Stacked pickles: for ANY number of complete pickles b_1..b_k (each accepted by load exactly, with
   parse p_i), the stack parsed from their concatenation has exactly k elements, element i is p_i
   shifted to where b_i starts, and re-serialises to b_i. *)
Theorem C06_stacked_partition : forall items,
  items <> [] ->
  Forall (fun bp => complete (fst bp) (snd bp)) items ->
  stacked_load KBytes (List.concat (map fst items)) 0
    = LOk (shift_parts 0 items, List.length (List.concat (map fst items))) /\
  List.length (shift_parts 0 items) = List.length items /\
  Forall2 (fun part bp => dumps part = Ok (fst bp)) (shift_parts 0 items) items.
Proof. exact stacked_bytes_partition. Qed.

(* ... also on a seekable stream at an offset, followed by anything that does not start a pickle *)
Theorem C06_stacked_partition_seekable : forall items pre tail,
  items <> [] ->
  Forall (fun bp => complete (fst bp) (snd bp)) items ->
  load_stream (pre ++ List.concat (map fst items) ++ tail)
              (List.length pre + List.length (List.concat (map fst items))) = LErr LEmpty ->
  stacked_load KSeekable (pre ++ List.concat (map fst items) ++ tail) (List.length pre)
    = LOk (shift_parts (List.length pre) items, List.length pre + List.length (List.concat (map fst items))) /\
  List.length (shift_parts (List.length pre) items) = List.length items /\
  Forall2 (fun part bp => dumps part = Ok (fst bp)) (shift_parts (List.length pre) items) items.
Proof. exact stacked_stream_partition. Qed.

(* ... and for ANY input whatsoever: if the stacked parse returns, its elements concatenated
   re-serialise to exactly the bytes from the start to the end of the last accepted pickle, there is
   at least one element, and each ends in STOP. *)
Theorem C06_stacked_sound : forall buf start parts e,
  stacked_stream buf start = LOk (parts, e) ->
  dumps (List.concat parts) = Ok (firstn (e - start) (skipn start buf)) /\
  start <= e /\ parts <> [] /\ Forall (fun p => exists q, ends_in_stop p q) parts.
Proof.
  intros buf start parts e H. unfold stacked_stream in H.
  destruct (stacked_loop (2 + (List.length buf - start)) buf start []) as [[ps e0]|er] eqn:SL.
  - destruct ps as [|p0 ps']; [discriminate|]. inversion H; subst; clear H.
    destruct (stacked_loop_sound _ _ _ _ _ _ start SL (le_n _)) as (A & B & C).
    + rewrite Nat.sub_diag. reflexivity.
    + constructor.
    + repeat split; try assumption. discriminate.
  - discriminate.
Qed.

(* ... and on a non-seekable stream that has already handed out [pre]: the reader is shared by the
   loop's Pickled.load calls, positions count from the first pickle *)
Theorem C06_stacked_partition_nonseekable : forall items pre tail,
  items <> [] ->
  Forall (fun bp => complete (fst bp) (snd bp)) items ->
  load_stream (List.concat (map fst items) ++ tail) (List.length (List.concat (map fst items))) = LErr LEmpty ->
  stacked_load KNonSeekable (pre ++ List.concat (map fst items) ++ tail) (List.length pre)
    = LOk (shift_parts 0 items, List.length (List.concat (map fst items))) /\
  List.length (shift_parts 0 items) = List.length items /\
  Forall2 (fun part bp => dumps part = Ok (fst bp)) (shift_parts 0 items) items.
Proof.
  intros items pre tail NE F E. unfold stacked_load. rewrite BaseProofs.skipn_app_exact by reflexivity.
  exact (stacked_stream_partition items [] tail NE F E).
Qed.

(* Non-seekable stream that has already handed out off bytes (fickle._RecordingReader): whenever
   Pickled.load succeeds, dumps() is exactly the e bytes of the first pickle, bs[off, off+e); the parse
   ends in a STOP whose end is e (the reader's coordinates start at 0); the CALLER's stream has handed out
   exactly those e bytes -- it stands at off+e --, what it can still deliver is exactly bs[off+e:], and
   nothing is lost: bs = bs[:off] ++ dumps ++ bs[off+e:]. *)
Theorem C06_nonseekable : forall bs off r,
  load_model KNonSeekable bs off = LOk r ->
  dumps (l_ops r) = Ok (firstn (l_end r) (skipn off bs)) /\
  ends_in_stop (l_ops r) (l_end r) /\ starts_at (l_ops r) 0 /\
  0 < l_end r /\ off + l_end r <= List.length bs /\
  l_caller r = Some (off + l_end r) /\
  caller_rest bs r = Some (skipn (off + l_end r) bs) /\
  bs = firstn off bs ++ firstn (l_end r) (skipn off bs) ++ skipn (off + l_end r) bs.
Proof.
  intros bs off r H. apply load_model_stream in H. cbv iota in H. destruct H as [LS LC].
  destruct (load_stream_exact _ _ _ _ LS) as (D & B & ES & SA & _).
  rewrite skipn_length in B. rewrite Nat.sub_0_r in D.
  unfold caller_rest. rewrite LC. repeat split; try assumption; try Lia.lia.
  rewrite (Nat.add_comm off). apply BaseProofs.firstn_mid_skipn.
Qed.

(* Why the recording reader is enough.  At the loop iteration for token t the reader holds the bytes
   genops has taken so far, [recorded buf t] = the first t_pos+t_len bytes; the back-fill of the previous
   opcode and the data of the new one computed from THOSE bytes alone are what a random-access stream
   over the whole input gives, hence the whole load is the load over a buffer. *)
Theorem C06_reads_within_recorded : forall buf t acc,
  tok_ok buf t ->
  backfill (recorded buf t) acc (t_pos t) = backfill buf acc (t_pos t) /\
  immediate_data (recorded buf t) t = immediate_data buf t.
Proof. exact loop_step_from_recorded. Qed.

Theorem C06_recording_reader_transparent : forall buf start,
  load_stream_rec buf start = load_stream buf start.
Proof. exact load_stream_rec_eq. Qed.

(* pickle.dumps([1, 'a'], 2) = \x80\x02]q\x00(K\x01X\x01\x00\x00\x00ae. *)
Definition ex_b : list byte :=
  [x80; x02; x5d; x71; x00; x28; x4b; x01; x58; x01; x00; x00; x00; x61; x65; x2e].
Definition ex_none : list byte := [x4e; x2e].    (* N. *)

(* REGRESSION of the repaired finding D12: "N.N." through a non-seekable reader -- the parse is exact,
   the second pickle is still in the caller's stream, a second Pickled.load on the same stream (which has
   by then handed out 2 bytes) returns it, and StackedPickle.load yields both. *)
Example C06_nonseekable_tail_kept :
  exists r r2, load_model KNonSeekable (ex_none ++ ex_none) 0 = LOk r /\
               dumps (l_ops r) = Ok ex_none /\ l_end r = 2 /\ l_caller r = Some 2 /\
               caller_rest (ex_none ++ ex_none) r = Some ex_none /\
               load_model KNonSeekable (ex_none ++ ex_none) 2 = LOk r2 /\
               dumps (l_ops r2) = Ok ex_none /\ caller_rest (ex_none ++ ex_none) r2 = Some [] /\
               exists ps, stacked_load KNonSeekable (ex_none ++ ex_none) 0 = LOk (ps, 4) /\ List.length ps = 2.
Proof.
  eexists. eexists. split; [vm_compute; reflexivity|].
  do 4 (split; [vm_compute; reflexivity|]).
  split; [vm_compute; reflexivity|].
  do 2 (split; [vm_compute; reflexivity|]).
  eexists. split; [vm_compute; reflexivity|]. reflexivity.
Qed.

Example C06_nonvacuous_nonseekable :
  exists r, load_model KNonSeekable (ex_none ++ ex_b ++ [x4b]) 2 = LOk r /\
            l_end r = 16 /\ l_caller r = Some 18 /\ dumps (l_ops r) = Ok ex_b /\
            caller_rest (ex_none ++ ex_b ++ [x4b]) r = Some [x4b].
Proof. eexists. split; [vm_compute; reflexivity|]. vm_compute. repeat split. Qed.

Example C06_nonvacuous_recorded :
  exists r, lookup x58 = Some r /\ tok_ok ex_b (mkTok r 8 6) /\
            recorded ex_b (mkTok r 8 6) = firstn 14 ex_b.
Proof.
  eexists. split; [vm_compute; reflexivity|]. split; [unfold tok_ok; vm_compute; reflexivity|]. reflexivity.
Qed.

Example C06_nonvacuous_load :
  exists r, load_model KSeekable (ex_none ++ ex_b ++ [x4b]) 2 = LOk r /\
            l_end r = 18 /\ List.length (l_ops r) = 8 /\ dumps (l_ops r) = Ok ex_b.
Proof. eexists. split; [vm_compute; reflexivity|]. vm_compute. repeat split. Qed.

Example C06_nonvacuous_complete : exists p q, complete ex_b p /\ complete ex_none q /\
  tokenize ex_b 0 <> Err EValue.
Proof.
  eexists. eexists. split; [unfold complete; vm_compute; reflexivity|].
  split; [unfold complete; vm_compute; reflexivity|]. vm_compute. discriminate.
Qed.

Example C06_nonvacuous_stacked :
  exists ps, stacked_load KBytes (ex_b ++ ex_none ++ ex_b) 0 = LOk (ps, 34) /\ List.length ps = 3.
Proof. eexists. split; [vm_compute; reflexivity|]. reflexivity. Qed.

(* refusals are values, not exceptions of the model: truncated / unknown opcode / no class *)
Example C06_refusals :
  load_model KBytes [x4b] 0 = LErr LEmpty /\                      (* BININT1 without its byte *)
  load_model KBytes [x4e; x4b] 0 = LErr LDecode /\                (* NONE, then truncated *)
  load_model KBytes [xff] 0 = LErr LEmpty /\                      (* unknown opcode *)
  load_model KBytes [x46; x31; x0a; x2e] 0 = LErr LNotImpl.       (* FLOAT: no class *)
Proof. vm_compute. repeat split. Qed.

Print Assumptions C06_table_obligations.
Print Assumptions C06_tokenize_sound.
Print Assumptions C06_no_fuel.
Print Assumptions C06_accepts_complete.
Print Assumptions C06_rejects_incomplete.
Print Assumptions C06_dumps_exact.
Print Assumptions C06_dumps_exact_bytes.
Print Assumptions C06_prefix_determinism.
Print Assumptions C06_stacked_partition.
Print Assumptions C06_stacked_partition_seekable.
Print Assumptions C06_stacked_sound.
Print Assumptions C06_stacked_partition_nonseekable.
Print Assumptions C06_nonseekable.
Print Assumptions C06_reads_within_recorded.
Print Assumptions C06_recording_reader_transparent.
Print Assumptions C06_nonseekable_tail_kept.
