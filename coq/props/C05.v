(* C05 -- Decompiled program rebuilds the same value as the real pickle VM (layer A: the symbolic
   result DENOTES the VM's value; layer B, further down: EVALUATING the decompiled program rebuilds
   it; see DESIGN.md 5/C05). *)
From Coq Require Import List String ZArith.
From Verif Require Import Base Ops Interp RefVM SimRel SimProofs PyEval PyEvalProofs.
Import ListNotations.
Local Open Scope nat_scope.
Local Open Scope list_scope.

(* One opcode: the relation R ("every symbolic expression on the stack / in the memo / in a mutable
   node / in an emitted statement denotes the corresponding VM value, node i is heap object i, the
   module body matches the event log") is preserved by every opcode both machines accept. *)
Theorem C05_lockstep : forall o al f v f' v',
  vstopped v = None -> R al f v -> step o f = Ok f' -> vstep o v = Ok v' ->
  exists al', ext al al' /\ R al' f' v'.
Proof. exact lockstep. Qed.

(* Whole programs of any length, nesting, sharing and memo traffic: if the reference VM returns
   value x and decompilation succeeds, then the decompiled program ends with
   `result = e` where e denotes x, the environment of fickling's variables binds exactly stand-in
   objects, and every mutable node holds expressions denoting the contents of the VM's object. *)
Theorem C05_result_denotes_value : forall p first_var f' v' x,
  run_from p (fk_init first_var) = Ok f' -> vrun_from p vm_init = Ok v' -> vstopped v' = Some x ->
  exists al e b,
    body f' = SResult e :: b /\ rel al e x /\
    Forall2 (rel_node al) (nodes f') (heap v') /\
    rel_events al (body f') (log v') /\
    Forall (fun y => callable y = true) al /\ ctr f' = List.length al.
Proof.
  intros p n f' v' x Hs Hv Hx.
  destruct (run_lockstep p _ _ _ _ _ (R_init n) Hs Hv) as (al & _ & [Rs Rm Rh Re Rc Rv Rp]).
  rewrite Hx in Rp. destruct Rp as (_ & e & b & Hb & Hr).
  exists al, e, b. repeat split; assumption.
Qed.

(* non-vacuity: [d, d] with d = {'a': 1} at protocol 2 (the shape that was wrong on the pinned tree):
   both machines accept, and the symbolic result is a list node whose two elements are the SAME dict
   node *)
Definition shared_dict : list op :=
  [ONoop; OEmptyList; OPut 0; OMark; OEmptyDict; OPut 1; OConst (CStr "a"); OConst (CInt 1);
   OSetItem; OGet 1; OAppends; OStop].
Example C05_nonvacuous_shared_dict :
  match run shared_dict, vrun shared_dict with
  | Ok f, Ok v =>
      body f = [SResult (ENode 0)] /\
      nodes f = [NList [ENode 1; ENode 1]; NDict [(EConst (CStr "a"), EConst (CInt 1))]] /\
      vstopped v = Some (VRef 0) /\
      heap v = [HList [VRef 1; VRef 1]; HDict [(VConst (CStr "a"), VConst (CInt 1))]]
  | _, _ => False
  end.
Proof. vm_compute. auto. Qed.

(* Layer B: EVALUATING the decompiled program (PyEval.v: a mini-Python evaluator for the statement /
   expression subset fickling emits, against the same inert stand-ins as the reference VM; a
   mutable node is a list / set / dict DISPLAY of its final contents, and every evaluation of a
   display allocates a fresh object) rebuilds the VM's value.

   Plain data -- constants, MARK / POP / POP_MARK / DUP, tuples, EMPTY_LIST / DICT / SET, APPEND(S),
   SETITEM(S), ADDITEMS, LIST / DICT / FROZENSET, memo PUT / GET / MEMOIZE, PROTO / FRAME, STOP --
   programs of ANY length, nesting and sharing that both machines accept, whose VM result is
   acyclic (same_shape n h h x x = true says exactly: x unfolds to a finite tree of depth < n):
   evaluating `result = e` with fuel n succeeds, neither side logs an event, and the result
   unfolds to the SAME tree as the VM's value.  Sharing between two displays of one node is lost in
   the evaluated value ([d, d] is rebuilt as two equal dicts); for a final value that nobody
   mutates afterwards tree equality is the right notion of "same value" (the property's
   "sharing preserved wherever it affects the value"): sets and dicts are compared by their
   insertion histories, which determine the Python set / dict. *)
Theorem C05_plain_data_eval : forall p n f v x,
  forallb data_op p = true -> run p = Ok f -> vrun p = Ok v -> vstopped v = Some x ->
  same_shape n (heap v) (heap v) x x = true ->
  exists st r, py_run n p = Ok st /\ presult st = Some r /\ plog st = [] /\ log v = [] /\
               same_shape n (heap v) (pheap st) x r = true.
Proof. exact plain_data_eval. Qed.

(* the evaluator lemma behind it (all expressions fickling emits): an expression that denotes VM
   value v (layer A's relation) evaluates -- where _var<i> is bound to the stand-in it names and node
   displays are rebuilt from the final nodes -- to a value observationally equal to v *)
Theorem C05_eval_denotes : forall P al ns h imps vars bound okname,
  Forall2 (rel_node al) ns h -> forallb (obj_wf P) h = true ->
  (forall i x, i < bound -> nth_error al i = Some x ->
     exists y, lookup_var i vars = Some y /\ leaf_same x y = true) ->
  (forall m n, P (VGlobal m n) = true -> okname n = true -> leaf_same (VGlobal m n) (lookup_name n imps) = true) ->
  forall n e v hp, fits n ns bound okname e = true -> rel al e v -> wfv P v = true ->
  exists v' hp', eval ns imps vars n e hp = Ok (v', hp ++ hp') /\
                 same_shape n h (hp ++ hp') v v' = true.
Proof. exact eval_denotes. Qed.

(* frozensets hold hashable elements, set members and dict keys are hashable: an invariant of the
   reference VM over every opcode (needed because a Python set / dict display re-checks it) *)
Theorem C05_vm_wellformed : forall p v,
  vrun p = Ok v -> vm_wf any_standin v = true.
Proof.
  intros p v H. apply vm_wf_WF. eapply wf_run; [right; split; reflexivity | exact H | apply WF_init].
Qed.

(* non-vacuity: the shared dict [d, d] (acyclic, depth 3): hypotheses hold, the evaluated result is
   a list of two equal dicts *)
Example C05_plain_data_nonvacuous :
  forallb data_op shared_dict = true /\
  match run shared_dict, vrun shared_dict, py_run 4 shared_dict with
  | Ok f, Ok v, Ok st =>
      vstopped v = Some (VRef 0) /\ same_shape 4 (heap v) (heap v) (VRef 0) (VRef 0) = true /\
      presult st = Some (VRef 2) /\
      pheap st = [HDict [(VConst (CStr "a"), VConst (CInt 1))];
                  HDict [(VConst (CStr "a"), VConst (CInt 1))]; HList [VRef 0; VRef 1]] /\
      same_shape 4 (heap v) (pheap st) (VRef 0) (VRef 2) = true
  | _, _, _ => False
  end.
Proof. vm_compute. repeat split; reflexivity. Qed.

(* a cyclic value (l = []; l.append(l)) is outside: it has no finite unfolding at any depth tried,
   and the evaluator runs out of fuel (Err EFuel) instead of answering *)
Example C05_cyclic_is_excluded :
  let p := [OEmptyList; OPut 0; OGet 0; OAppend; OStop] in
  match vrun p with
  | Ok v => vstopped v = Some (VRef 0) /\ same_shape 50 (heap v) (heap v) (VRef 0) (VRef 0) = false
  | _ => False
  end /\ py_run 50 [OEmptyList; OPut 0; OGet 0; OAppend; OStop] = Err EFuel.
Proof. vm_compute. repeat split; reflexivity. Qed.

(* Calls.  For every program both machines accept -- any mix of data with GLOBAL / STACK_GLOBAL / INST /
   OBJ / NEWOBJ / NEWOBJ_EX (with its **kwargs dict) / REDUCE / BINPERSID and BUILD / SETITEM / SETITEMS
   applied to an object or to a global itself (one item assignment per pair, finding D22 repaired), of
   any length -- evaluating the decompiled program succeeds, its result unfolds to the same tree as the
   VM's value, and its event log IS the VM's log: same imports (resolves of builtins are implicit in
   Python), same callee, arguments and keyword-argument dict for every call, same persistent ids, same
   state applied to the same object, same item assignments, in the same order, with opaque results
   numbered alike -- under the two boolean side conditions that stand for the two known findings:
     defined_before_use n f   every statement of the decompiled program prints within depth n and uses
                              only variables assigned / names imported by EARLIER statements: the
                              observable core of finding D15 (a node mutated after an emitted
                              statement captured it is printed with its final contents; with both
                              logs rendered against the final heaps this is only visible when the
                              final contents mention a later variable or import), and
     distinct_attr_names      finding D14: same attribute name => same module.
   No opcode or statement form that fickling emits is excluded (defined_before_use is false
   only on D15 programs, on programs deeper than n, and on statement forms fickling never emits).
   Idealisation shared by both models: the "keywords must be strings" check of a ** call is not
   modelled (RefVM and PyEval both accept any hashable key; CPython raises TypeError on both sides). *)
Theorem C05_eval_agrees : forall p n f v x,
  run p = Ok f -> vrun p = Ok v -> vstopped v = Some x ->
  defined_before_use n f = true -> distinct_attr_names (log v) = true ->
  exists st r, py_run n p = Ok st /\ presult st = Some r /\
    same_shape n (heap v) (pheap st) x r = true /\
    forallb2 (same_event n (heap v) (pheap st)) (filter visible_event (log v)) (plog st) = true.
Proof. exact eval_agrees. Qed.

(* NEWOBJ_EX with keyword arguments, and BUILD / SETITEM applied to a global itself *)
Example C05_eval_agrees_kwargs_and_global_alias :
  let p := [OGlobal "m" "C"; OEmptyTuple; OEmptyDict; OConst (CStr "k"); OEmptyList; OSetItem; ONewObjEx;
            OPop; OGlobal "__builtin__" "eval"; OConst CNone; OBuild; OConst (CInt 1); OConst (CInt 2);
            OSetItem; OStop] in
  match run p, vrun p, py_run 5 p with
  | Ok f, Ok v, Ok st =>
      defined_before_use 5 f = true /\ distinct_attr_names (log v) = true /\
      vstopped v = Some (VGlobal "__builtin__" "eval") /\ presult st = Some (VGlobal "builtins" "eval") /\
      List.length (log v) = 5 /\ List.length (plog st) = 4 /\
      forallb2 (same_event 5 (heap v) (pheap st)) (filter visible_event (log v)) (plog st) = true
  | _, _, _ => False
  end.
Proof. vm_compute. repeat split; reflexivity. Qed.

(* non-vacuity: from os import system; _var0 = system('x', [..shared..]); _var1 = _var0;
   _var1.__setstate__({'k': [1]}); result = (_var1, [1]) *)
Definition call_prog : list op :=
  [OGlobal "os" "system"; OMark; OConst (CStr "x"); OEmptyList; OPut 1; OConst (CInt 1); OAppend;
   OTuple; OReduce; OEmptyDict; OConst (CStr "k"); OGet 1; OSetItem; OBuild; OGet 1; OTuple2; OStop].
Example C05_eval_agrees_nonvacuous :
  match run call_prog, vrun call_prog, py_run 5 call_prog with
  | Ok f, Ok v, Ok st =>
      defined_before_use 5 f = true /\ distinct_attr_names (log v) = true /\
      vstopped v = Some (VTuple [VObj 0; VRef 0]) /\
      List.length (log v) = 3 /\ List.length (plog st) = 3 /\
      presult st = Some (VTuple [VObj 0; VRef 3])
  | _, _, _ => False
  end.
Proof. vm_compute. repeat split; reflexivity. Qed.

(* SETITEMS on an object with a repeated and an unhashable key (the D22 witnesses) *)
Example C05_eval_agrees_setitems_on_object :
  let p := [OGlobal "os" "system"; OEmptyTuple; OReduce; OMark; OConst (CStr "a"); OConst (CInt 1); OConst (CStr "a");
            OConst (CInt 2); OEmptyList; OConst (CInt 3); OSetItems; OStop] in
  match run p, vrun p, py_run 5 p with
  | Ok f, Ok v, Ok st =>
      defined_before_use 5 f = true /\ distinct_attr_names (log v) = true /\
      List.length (log v) = 5 /\ List.length (plog st) = 5 /\
      forallb2 (same_event 5 (heap v) (pheap st)) (filter visible_event (log v)) (plog st) = true
  | _, _, _ => False
  end.
Proof. vm_compute. repeat split; reflexivity. Qed.

(* both side conditions are needed: the faithful model violates the conclusion without them *)
(* D15: l = []; o = persistent_load(l); l.append(o)  decompiles to
   `_var0 = UNPICKLER.persistent_load([_var0])`: _var0 is used before it is assigned *)
Example C05_eval_agrees_refuted_without_D15 :
  exists p f v st,
    run p = Ok f /\ vrun p = Ok v /\ py_run 10 p = Ok st /\
    distinct_attr_names (log v) = true /\ defined_before_use 10 f = false /\
    forallb2 (same_event 10 (heap v) (pheap st)) (filter visible_event (log v)) (plog st) = false.
Proof.
  exists [OEmptyList; ODup; OBinPersId; OAppend; OStop].
  do 3 eexists. repeat (split; [vm_compute; reflexivity|]). vm_compute. reflexivity.
Qed.

(* D14: a.f and b.f share the Python name f: the VM calls a.f, the decompiled program calls b.f *)
Example C05_eval_agrees_refuted_without_D14 :
  exists p f v st,
    run p = Ok f /\ vrun p = Ok v /\ py_run 10 p = Ok st /\
    distinct_attr_names (log v) = false /\ defined_before_use 10 f = true /\
    forallb2 (same_event 10 (heap v) (pheap st)) (filter visible_event (log v)) (plog st) = false.
Proof.
  exists [OGlobal "a" "f"; OGlobal "b" "f"; OPop; OEmptyTuple; OReduce; OStop].
  do 3 eexists. repeat (split; [vm_compute; reflexivity|]). vm_compute. reflexivity.
Qed.

Print Assumptions C05_lockstep.
Print Assumptions C05_result_denotes_value.
Print Assumptions C05_plain_data_eval.
Print Assumptions C05_eval_denotes.
Print Assumptions C05_vm_wellformed.
Print Assumptions C05_eval_agrees.
