(* C17 -- Format identification follows the documented table and is read-only.
   Model: model/Poly.v (fickling/polyglot.py with notes/fix_polyglot_cleanup.patch); specification
   written by hand from the documentation: model/PolySpec.v; lemmas: proofs/PolyProofs.v. *)
From Coq Require Import List String.
From Verif Require Import Base Poly PolySpec PolyProofs.
Import ListNotations.
Open Scope string_scope.

(* For every properties record -- all 32 subsets of the five marker members and all values of the six
   other inputs, 2048 records, evaluated exhaustively against the REGENERATED format_conditions --
   identification succeeds and the reported list
   (1) is ordered by the documented precedence (TorchScript v1.4, v1.3, v1.0, v1.1, PyTorch v1.3, then
       tar / stacked pickle / model archive), without duplicates and without undocumented names;
   (2) contains a zip format only for a zip at offset 0 that has every member the documentation lists;
   (3) for such a zip, contains every zip format whose documented members are present (for TorchScript
       v1.0 see (4));
   (4) contains TorchScript v1.0 exactly when such a zip has model.json AND constants.pkl;
   (5) contains PyTorch v1.3 whenever such a zip has data.pkl;
   (6) contains the three non-zip formats exactly under their conditions. *)
Theorem C17_table : forall p : props, exists fs, identify p = Ok fs /\
  fs = filter (fun f => mem_str f fs) precedence /\
  (forall f ms, In (f, ms) doc_zip_table -> In f fs ->
     is_torch_zip p = true /\ forall m, In m ms -> marker p m = true) /\
  (forall f ms, In (f, ms) doc_zip_table -> f <> "TorchScript v1.0" -> is_torch_zip p = true ->
     (forall m, In m ms -> marker p m = true) -> In f fs) /\
  (In "TorchScript v1.0" fs <->
     is_torch_zip p = true /\ has_model_json p = true /\ has_constants_pkl p = true) /\
  (is_torch_zip p = true -> has_data_pkl p = true -> In "PyTorch v1.3" fs) /\
  (In "PyTorch v0.1.1" fs <-> is_tar p = true /\ legacy_ok p = true) /\
  (In "PyTorch v0.1.10" fs <-> is_valid_pickle p = true) /\
  (In "PyTorch model archive format" fs <-> is_standard_zip p = true /\ mar_ok p = true).
Proof. exact table_holds. Qed.

(* The suffix test torch applies ("<archive>/data.pkl" is a member) implies the substring test fickling
   applies ("data.pkl" in name), for names of any length. *)
Theorem C17_suffix_implies_substring : forall x s n,
  ends_with (x ++ s) n = true -> contains s n = true.
Proof. exact ends_with_contains. Qed.

(* [contains] and [ends_with] are Python's `in` and `endswith` *)
Theorem C17_string_tests_meaning : forall s n,
  (contains s n = true <-> exists a b, n = a ++ s ++ b) /\
  (ends_with s n = true <-> exists a, n = a ++ s).
Proof. exact (fun s n => conj (contains_spec s n) (ends_with_spec s n)). Qed.

(* Any file torch's zip loader accepts (zip magic at offset 0, records "<archive>/version" and "<archive>/data.pkl") is
   discovered as is_torch_zip and has_data_pkl, hence reported at least as PyTorch v1.3 -- for every
   name list and all values of the other discovered properties. *)
Theorem C17_torch_accepts_implies_v13 : forall tz tar pkl std legacy names,
  torch_accepts tz names = true ->
  is_torch_zip (props_of_names tz tar pkl std legacy names) = true /\
  has_data_pkl (props_of_names tz tar pkl std legacy names) = true /\
  exists fs, identify (props_of_names tz tar pkl std legacy names) = Ok fs /\ In "PyTorch v1.3" fs.
Proof.
  intros tz tar pkl std legacy names H.
  apply torch_accepts_data_pkl in H. destruct H as [-> [n [Hin He]]].
  assert (D : has_sub "data.pkl" names = true).
  { apply existsb_exists. exists n. split; [exact Hin|]. apply (ends_with_contains "/" "data.pkl"), He. }
  split; [reflexivity|]. split; [simpl; exact D|].
  destruct (table_holds (props_of_names true tar pkl std legacy names)) as [fs [E T]].
  exists fs. split; [exact E|]. destruct T as [_ [_ [_ [_ [T _]]]]]. apply T; simpl; auto.
Qed.

(* Identification is a function of exactly the discovered properties it consults (markers only for a
   zip at offset 0, the legacy-tar answer only for a tar, the model-archive answer only for a standard
   zip); and identifying the file at a path depends on the file's bytes only and leaves the file system
   as it was. *)
Theorem C17_deterministic :
  (forall p q,
     is_torch_zip p = is_torch_zip q -> is_tar p = is_tar q ->
     is_valid_pickle p = is_valid_pickle q -> is_standard_zip p = is_standard_zip q ->
     (is_torch_zip p = true ->
        has_data_pkl p = has_data_pkl q /\ has_constants_pkl p = has_constants_pkl q /\
        has_version p = has_version q /\ has_model_json p = has_model_json q /\
        has_attributes_pkl p = has_attributes_pkl q) ->
     (is_tar p = true -> legacy_ok p = legacy_ok q) ->
     (is_standard_zip p = true -> mar_ok p = mar_ok q) ->
     identify p = identify q) /\
  (forall ident fs fs' p p', file_at fs p = file_at fs' p' ->
     fst (identify_path ident fs p) = fst (identify_path ident fs' p') /\
     snd (identify_path ident fs p) = fs).
Proof.
  split.
  - intros [a b c d e f g h i j k] [a' b' c' d' e' f' g' h' i' j' k']; simpl.
    intros -> -> -> -> Hm Hl Hmar. unfold identify; cbn [is_torch_zip is_tar is_valid_pickle is_standard_zip legacy_ok mar_ok].
    assert (Z : (if a' then zip_formats (mkProps a' b' c' d' e f g h i j k) PolyTable.format_conditions else Ok []) =
                (if a' then zip_formats (mkProps a' b' c' d' e' f' g' h' i' j' k') PolyTable.format_conditions else Ok [])).
    { destruct a'; [|reflexivity]. destruct (Hm eq_refl) as (-> & -> & -> & -> & ->).
      apply zip_formats_ext. intros; reflexivity. }
    rewrite Z.
    destruct b'; [rewrite (Hl eq_refl)|]; (destruct d'; [rewrite (Hmar eq_refl)|]); reflexivity.
  - intros ident fs fs' p p' H. unfold identify_path. simpl. rewrite H. split; reflexivity.
Qed.

(* create_polyglot (with the cleanup fix) over the abstract file system: for EVERY file system, pair of
   input paths, requested output name, identification answers and zip name lists -- hence at every crash
   point (missing input, identification raising, no recognised format for either file, TorchScript file
   without constants.pkl / version) and on every normal return -- provided the scratch names temp_<a>,
   temp_<b>, temp/ are not taken and the output name is neither an input nor a scratch name:
   both inputs are unchanged; when no polyglot is produced (exception or False) every path is exactly as
   before; when one is produced, exactly one path differs -- the output, holding one input appended to the
   other or one input's zip extended with the other's constants.pkl and version. *)
Theorem C17_polyglot_clean : forall ident znames fs first second out,
  fresh fs first second out = true ->
  let r := create_polyglot ident znames fs first second out in
  lookup (snd r) first = lookup fs first /\
  lookup (snd r) second = lookup fs second /\
  match fst r with
  | Returned true =>
      exists name c, In name (candidates out) /\ lookup (snd r) name = Some (File c) /\
        polyglot_from (fun x => file_at fs first = Some x \/ file_at fs second = Some x) znames c /\
        forall p, p <> name -> lookup (snd r) p = lookup fs p
  | _ => forall p, lookup (snd r) p = lookup fs p
  end.
Proof.
  intros ident znames fs first second out Hf r.
  pose proof (create_polyglot_post ident znames fs first second out Hf) as P.
  fold r in P. unfold post in P.
  destruct (fresh_parts fs first second out Hf) as (_ & _ & _ & Hc).
  destruct (fst r) as [[|]|c]; try (repeat split; intros; apply P, in_nil).
  destruct P as (name & c & Hn & L & Q & A). destruct (Hc name Hn) as (N1 & N2 & _).
  assert (A' : forall p, p <> name -> lookup (snd r) p = lookup fs p)
    by (intros p Hp; apply A; intros [E|[]]; congruence).
  split; [apply A'; congruence|]. split; [apply A'; congruence|].
  exists name, c. exact (conj Hn (conj L (conj Q A'))).
Qed.

(* The PyTorch v1.3 / TorchScript v1.4 construction at the level of name lists: a zip at offset 0 whose
   members are those of any archive with a data.pkl plus "constants.pkl" and "version" is identified as
   both formats the construction combines. *)
Theorem C17_polyglot_identified : forall tar pkl std legacy names,
  has_sub "data.pkl" names = true ->
  exists fs, identify (props_of_names true tar pkl std legacy (names ++ ["constants.pkl"; "version"])) = Ok fs /\
             In "TorchScript v1.4" fs /\ In "PyTorch v1.3" fs.
Proof.
  intros tar pkl std legacy names D.
  set (p := props_of_names true tar pkl std legacy (names ++ ["constants.pkl"; "version"])).
  destruct (table_holds p) as [fs [E T]]. exists fs. split; [exact E|].
  destruct T as [_ [_ [C [_ [V _]]]]].
  assert (Hd : has_data_pkl p = true) by (simpl; rewrite has_sub_app, D; reflexivity).
  assert (Hc : has_constants_pkl p = true) by (simpl; rewrite has_sub_app; apply Bool.orb_true_r).
  assert (Hv : has_version p = true) by (simpl; rewrite has_sub_app; apply Bool.orb_true_r).
  split.
  - apply (C "TorchScript v1.4" ["data.pkl"; "constants.pkl"; "version"]).
    + simpl; auto.
    + discriminate.
    + reflexivity.
    + intros m [<-|[<-|[<-|[]]]]; assumption.
  - apply V; [reflexivity|exact Hd].
Qed.

Definition ex_fs : fsys :=
  [("in/a.pt", File (Raw "A")); ("in/b.pt", File (Raw "B")); ("keep.txt", File (Raw "K")); ("in", Dir)].
Definition ex_ident (a b : res (list string)) (c : content) : res (list string) :=
  match c with Raw "A" => a | Raw "B" => b | _ => Err EUnmodelled end.
Definition ex_znames (l : list string) (c : content) : list string :=
  match c with Raw "B" => l | _ => [] end.

Example C17_fresh_nonvacuous :
  fresh ex_fs "in/a.pt" "in/b.pt" None = true /\ fresh ex_fs "in/a.pt" "in/b.pt" (Some "out.pt") = true /\
  fresh ex_fs "in/a.pt" "in/a.pt" None = true.
Proof. vm_compute. auto. Qed.

(* every crash point is reachable, and so is each constructor *)
Example C17_crash_points_reachable :
  fst (create_polyglot (ex_ident (Ok []) (Ok [])) (ex_znames []) ex_fs "in/none" "in/b.pt" None)
    = Raised CopyFirst /\
  fst (create_polyglot (ex_ident (Ok []) (Ok [])) (ex_znames []) ex_fs "in/a.pt" "in/none" None)
    = Raised CopySecond /\
  fst (create_polyglot (ex_ident (Ok []) (Ok ["PyTorch v1.3"])) (ex_znames []) ex_fs "in/a.pt" "in/b.pt" None)
    = Raised NoFormatFirst /\
  fst (create_polyglot (ex_ident (Ok ["PyTorch v1.3"]) (Ok [])) (ex_znames []) ex_fs "in/a.pt" "in/b.pt" None)
    = Raised NoFormatSecond /\
  fst (create_polyglot (ex_ident (Err EValue) (Ok [])) (ex_znames []) ex_fs "in/a.pt" "in/b.pt" None)
    = Raised (IdentFirst EValue) /\
  fst (create_polyglot (ex_ident (Ok ["PyTorch v1.3"]) (Ok ["TorchScript v1.4"]))
         (ex_znames ["m/data.pkl"; "m/constants.pklx"; "m/version"]) ex_fs "in/a.pt" "in/b.pt" None)
    = Returned false /\
  fst (create_polyglot (ex_ident (Ok ["PyTorch v1.3"]) (Ok ["PyTorch v1.3"])) (ex_znames []) ex_fs
         "in/a.pt" "in/b.pt" None)
    = Returned false.
Proof. vm_compute. repeat split. Qed.

Example C17_constructors_reachable :
  create_polyglot (ex_ident (Ok ["PyTorch v1.3"]) (Ok ["TorchScript v1.4"; "TorchScript v1.3"; "PyTorch v1.3"]))
      (ex_znames ["m/data.pkl"; "m/constants.pkl"; "m/version"]) ex_fs "in/a.pt" "in/b.pt" None
    = (Returned true,
       ("polyglot.pt", File (ZipAdd (Raw "A") [("constants.pkl", Member (Raw "B") "m/constants.pkl");
                                               ("version", Member (Raw "B") "m/version")])) :: ex_fs) /\
  create_polyglot (ex_ident (Ok ["PyTorch v0.1.10"]) (Ok ["PyTorch model archive format"]))
      (ex_znames []) ex_fs "in/a.pt" "in/b.pt" (Some "out.bin")
    = (Returned true, ("out.bin", File (Cat (Raw "A") (Raw "B"))) :: ex_fs) /\
  create_polyglot (ex_ident (Ok ["PyTorch model archive format"]) (Ok ["PyTorch v0.1.1"]))
      (ex_znames []) ex_fs "in/a.pt" "in/b.pt" None
    = (Returned true, ("polyglot.mar.tar", File (Cat (Raw "B") (Raw "A"))) :: ex_fs).
Proof. vm_compute. repeat split. Qed.

Example C17_torch_accepts_nonvacuous :
  torch_accepts true ["archive/data.pkl"; "archive/version"; "archive/data/0"] = true /\
  torch_accepts true ["data.pkl"; "version"] = false /\
  torch_accepts false ["archive/data.pkl"; "archive/version"] = false.
Proof. vm_compute. auto. Qed.

(* The documentation lists TorchScript v1.0 as "ZIP file with model.json"; the code additionally asks for
   constants.pkl (and calls a model.json without attributes.pkl / constants.pkl corrupted). *)
Example C17_observation_v10_needs_constants :
  let p := mkProps true false false true false false false true false false false in
  marker p "model.json" = true /\ identify p = Ok [] /\ corrupted p = true.
Proof. vm_compute. auto. Qed.

(* Without the freshness hypothesis an input can be lost: the working copy of "x" is called "temp_x". *)
Example C17_observation_scratch_name_collision :
  let fs := [("x", File (Raw "A")); ("temp_x", File (Raw "B"))] in
  let r := create_polyglot (ex_ident (Ok ["PyTorch v1.3"]) (Ok ["PyTorch v1.3"])) (ex_znames []) fs "x" "temp_x" None in
  fresh fs "x" "temp_x" None = false /\ lookup fs "temp_x" = Some (File (Raw "B")) /\ lookup (snd r) "temp_x" = None.
Proof. vm_compute. auto. Qed.

Print Assumptions C17_table.
Print Assumptions C17_suffix_implies_substring.
Print Assumptions C17_string_tests_meaning.
Print Assumptions C17_torch_accepts_implies_v13.
Print Assumptions C17_deterministic.
Print Assumptions C17_polyglot_clean.
Print Assumptions C17_polyglot_identified.
