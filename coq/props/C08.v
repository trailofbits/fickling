(* C08 -- Injection adds exactly one call and preserves the original pickle's behaviour.

   Base pickle: base_run p = Some (r, sq)  <=>  p = q ++ [STOP], q runs on the reference VM from
   the empty machine to sq without stopping (p ends in its only executed STOP) and sq's stack is
   exactly [r] with no open mark; the base then returns r with the stack empty
   (C08_base_behaviour).  Nothing is assumed about the base's memo keys: the fixed keys
   321987 / 1 / 2 and MEMOIZE are only written and read after the last base opcode, so they cannot
   disturb the base.

   Each theorem gives the complete final VM state of the rewritten program; only the memo is left
   existential.  Event logs are newest first.  For insert_python the base runs after the injected
   set-up, so its heap references and opaque call results are renamed by the shifts shv/she/shh (by
   the number of argument heap objects, and by one object id when the call ran first); contents and
   order are otherwise unchanged. *)
From Coq Require Import List String Ascii ZArith Bool Arith.
From Coq Require Lia.
From Verif Require Import Base BaseProofs Ops Interp RefVM Severity Analysis FloorProofs Shape Inject InjectProofs
  InjectFkFrame.
From Verif Require StepFacts.
Import ListNotations.
Local Open Scope nat_scope.

Theorem C08_base_behaviour : forall p r sq,
  base_run p = Some (r, sq) -> vrun_from p vm_init = Ok (stopped_with r sq).
Proof.
  intros p r sq H. apply base_run_inv in H. destruct H as (q & mm & h & lg & k & -> & -> & R).
  rewrite StepFacts.vrun_app, R. cbn [bind]. vsteps. reflexivity.
Qed.

(* Frame lemma (all 36 abstract opcodes, any program length): a run that succeeds from s succeeds
   identically above extra bottom-of-stack values b, after dn earlier calls, with hp earlier heap
   objects and an earlier log lg0, and leaves all of those untouched *)
Theorem C08_frame : forall dn hp lg0 b p s s',
  vrun_from p s = Ok s' -> vrun_from p (lift dn hp lg0 b s) = Ok (lift dn hp lg0 b s').
Proof. exact vrun_lift. Qed.

(* which arguments the helpers accept (as the code: int / float / str / bytes constants -- not
   bool, not None --, lists of accepted arguments, dicts with constant keys and accepted values, nested
   to any depth; anything else makes the helper raise ValueError) and what they decode to *)
Theorem C08_insert_accepts : forall m n args rf rep p,
  ends_with_stop p = true -> forallb arg_ok args = true -> rf = true \/ rep = true ->
  exists p', inject (MInsert m n args rf rep) p = Ok p'.
Proof.
  intros m n args rf rep p E A F. cbn [inject]. unfold insert_python. rewrite E, A. cbn [negb].
  destruct rf; [destruct rep; eexists; reflexivity|]. destruct F as [F|F]; [discriminate|]. subst rep.
  eexists; reflexivity.
Qed.

(* run-last keep additionally needs fickling's own interpreter to accept the (prefixed) pickle: that
   is where the memo index comes from *)
Theorem C08_insert_run_last_keep_accepts : forall m n args p,
  ends_with_stop p = true -> forallb arg_ok args = true ->
  (exists p', inject (MInsert m n args false false) p = Ok p') <->
  (exists f, Interp.run (insert_block (skip_noops p) (call_setup m n (encode_objs args)) p) = Ok f).
Proof.
  intros m n args p E A. cbn [inject]. unfold insert_python. rewrite E, A. cbn [negb].
  destruct (run _) as [f|e]; cbn [bind]; split; intros (x & H); try discriminate H; eauto.
Qed.

Theorem C08_refuses : forall md p,
  match md with
  | MInsert _ _ args _ _ => ends_with_stop p = false \/ forallb arg_ok args = false
  | MAppend _ _ cs _ => ends_with_stop p = false \/ forallb const_ok cs = false
  | MCallObj _ _ _ cargs => ends_with_stop p = false \/ forallb const_ok cargs = false
  | MMagic _ _ => False
  end -> inject md p = Err EValue.
Proof.
  intros [m n args rf rep|m n cs pop|magic index|fdef fname bc cargs] p H; cbn [inject]; try contradiction;
    unfold insert_python, append_python, insert_call_on_object;
    destruct (ends_with_stop p); cbn [negb]; try reflexivity;
    destruct H as [H|H]; try discriminate H; rewrite H; reflexivity.
Qed.

(* "exactly the given arguments": dec_args args = (values, heap objects) reads the arguments off by
   direct recursion (a constant is itself; a list / dict is a fresh heap object holding its decoded
   items, inner objects allocated first).  For every argument list, nested to any depth, the block
   GLOBAL m n, MARK, <_encode_python_obj of each argument>, TUPLE evaluates on the reference VM, from
   the empty machine, to exactly these *)
Theorem C08_args_eval : forall m n args,
  plain2 m n = true ->
  vrun_from (call_setup m n (encode_objs args)) vm_init =
  Ok (mkVm [VTuple (fst (dec_args args)); VGlobal m n] [] [] (snd (dec_args args)) [EvResolve m n] 0 None).
Proof. exact args_eval_total. Qed.

Theorem C08_args_eval_consts : forall cs, dec_args (map AConst cs) = (map VConst cs, []).
Proof. exact dec_args_consts. Qed.

(* insert_python / insert_python_eval / insert_python_exec, run_first=True: exactly one call
   (VGlobal m n)(decoded args), made first (oldest log entries: its EvResolve, then the EvCall producing
   object 0); every base event follows in the original order; value = the base's (keep) or the call's
   object 0 (replace); stack empty at STOP *)
Theorem C08_insert_run_first : forall m n args,
  plain2 m n = true ->
  forall p r sq replace p',
  base_run p = Some (r, sq) ->
  inject (MInsert m n args true replace) p = Ok p' ->
  let vals := fst (dec_args args) in
  let hp := snd (dec_args args) in
  exists mm',
  vrun_from p' vm_init =
  Ok (mkVm [] [] mm' (hp ++ map (shh 1 hp) (heap sq))
           (map (she 1 hp) (log sq) ++ [EvCall (VGlobal m n) vals None 0; EvResolve m n])
           (nobj sq + 1) (Some (if replace then VObj 0 else shv 1 hp r))).
Proof.
  intros m n args P p r sq rep p' HB HI. cbv zeta.
  eapply insert_run_first_spec; eauto. apply args_eval_total. exact P.
Qed.

(* run_first=False: the global is resolved first, the call is the last event; the memo index the
   injector takes from fickling's symbolic run equals the VM's memo length (C09 shape lockstep).
   nobj sq + 0, shv 0 hp, she 0 hp, shh 0 hp are the shifts of C08_frame at dn = 0, no call preceding
   the base: object ids are unchanged, heap references move behind the arguments' objects *)
Theorem C08_insert_run_last : forall m n args,
  plain2 m n = true ->
  forall p r sq replace p',
  base_run p = Some (r, sq) ->
  inject (MInsert m n args false replace) p = Ok p' ->
  let vals := fst (dec_args args) in
  let hp := snd (dec_args args) in
  exists mm',
  vrun_from p' vm_init =
  Ok (mkVm [] [] mm' (hp ++ map (shh 0 hp) (heap sq))
           (EvCall (VGlobal m n) vals None (nobj sq + 0) :: map (she 0 hp) (log sq) ++ [EvResolve m n])
           (S (nobj sq + 0)) (Some (if replace then VObj (nobj sq + 0) else shv 0 hp r))).
Proof.
  intros m n args P p r sq rep p' HB HI. cbv zeta.
  eapply insert_run_last_spec; eauto. apply args_eval_total. exact P.
Qed.

(* append_python: the base runs unchanged, then exactly one call.  pop_result=True keeps r and
   leaves the stack empty; pop_result=False returns the call's value and LEAVES r ON THE STACK *)
Theorem C08_append : forall p r sq m n cs pop p',
  base_run p = Some (r, sq) -> plain2 m n = true ->
  inject (MAppend m n cs pop) p = Ok p' ->
  vrun_from p' vm_init =
  Ok (mkVm (if pop then [] else [r]) [] (vmemo sq) (heap sq)
           (EvCall (VGlobal m n) (map VConst cs) None (nobj sq) :: EvResolve m n :: log sq)
           (S (nobj sq)) (Some (if pop then r else VObj (nobj sq)))).
Proof.
  intros p r sq m n cs pop p' HB P HI. apply base_run_inv in HB. destruct HB as (q & mm & h & lg & k & -> & -> & R).
  rewrite (inject_normal_form _ _ _ _ HI eq_refl), normal_form_nil. cbn [fst snd vmemo heap log nobj].
  rewrite StepFacts.vrun_app, R. cbn [bind]. rewrite vrun_call_consts by exact P.
  destruct pop; cbn [app]; vsteps; reflexivity.
Qed.

(* the full statement asks for an empty stack in every mode: false for pop_result=False, on every base *)
Theorem C08_append_nopop_stack_refuted : exists p r sq m n cs p' v,
  base_run p = Some (r, sq) /\ inject (MAppend m n cs false) p = Ok p' /\
  vrun_from p' vm_init = Ok v /\ cur v = [r] /\ cur v <> [].
Proof.
  exists [OConst (CInt 1); OStop]. do 2 eexists. exists "m"%string, "f"%string, []. do 2 eexists.
  split; [vm_compute; reflexivity|]. split; [vm_compute; reflexivity|].
  split; [vm_compute; reflexivity|]. split; [reflexivity|discriminate].
Qed.

(* insert_function_call_on_unpickled_object: the function (what eval(fname) returned) is applied
   exactly once, last, to (r, constant args...); its result is the value; the stack is empty.  The
   helper's own preparatory calls (exec of the definition / marshal.loads, eval of the name) precede it *)
Theorem C08_call_on_object : forall p r sq fdef fname bc cargs p',
  base_run p = Some (r, sq) ->
  inject (MCallObj fdef fname bc cargs) p = Ok p' ->
  let k := nobj sq in
  let f := callobj_fn bc k in
  exists mm',
  vrun_from p' vm_init =
  Ok (mkVm [] [] mm' (heap sq)
           (EvCall (VObj f) (r :: map VConst cargs) None (S f) :: callobj_log fdef fname bc k (log sq))
           (S (S f)) (Some (VObj (S f)))).
Proof.
  intros p r sq fdef fname bc cargs p' HB HI. apply base_run_inv in HB.
  destruct HB as (q & mm & h & lg & k & -> & -> & R). cbv zeta.
  rewrite (inject_normal_form _ _ _ _ HI eq_refl), normal_form_nil. cbn [fst snd heap log nobj].
  rewrite StepFacts.vrun_app, R. cbn [bind]. unfold call_on_object_ops, callobj_fn, callobj_log.
  destruct bc as [code|]; rewrite <- !app_assoc, vrun_call_consts by reflexivity; cbn [app map]; vsteps;
    apply callobj_tail.
Qed.

(* insert_magic_int at any index (default -1, any other negative or non-negative index, out of range
   ones clamped as Python does): the rewritten program runs to exactly the same final state as the
   original, from any state.  (Before the repo fix for C08-F2 a negative index other than -1 put POP
   after the following opcode; the model follows the repaired code.) *)
Theorem C08_magic_int : forall magic index p s p',
  inject (MMagic magic index) p = Ok p' ->
  vrun_from p' s = vrun_from p s.
Proof. intros magic index p s p' H. injection H as <-. apply magic_run_same. Qed.

(* the rewritten pickle still ends with its single STOP (pure list reasoning): if the base ends in its
   only STOP then, for every mode and every argument the helper accepts, the rewritten program
   contains exactly one STOP, and it is the last opcode -- for insert_magic_int provided the resolved
   index lies inside the program: list.insert at index >= len appends, so the marker then lands after
   STOP (dead bytes; the run is still unchanged by C08_magic_int) *)
Theorem C08_single_final_stop : forall md p p',
  single_final_stop p = true -> inject md p = Ok p' ->
  count_occ op_eq_dec p' OStop = 1 /\
  (match md with
   | MMagic _ index => (magic_slot index p < Z.of_nat (List.length p))%Z
   | _ => True
   end -> ends_with_stop p' = true).
Proof.
  intros md p p' HS HI. apply single_final_stop_inv in HS. destruct HS as (q0 & -> & SF).
  destruct (inject_parts md q0) as [parts|] eqn:HP.
  - (* the normal form is stop-free up to its last opcode *)
    pose proof (inject_parts_stop_free md q0) as SP. rewrite HP in SP. destruct SP as [A B]. rewrite (inject_normal_form _ _ _ _ HI HP).
    unfold normal_form. rewrite !app_assoc. split; [|intros _; apply ends_with_stop_snoc].
    apply single_stop_intro. rewrite !stop_free_app, stop_free_repeat, A, B, (stop_free_skipn _ _ SF). reflexivity.
  - destruct md as [| |magic index|]; try discriminate HP. injection HI as <-.
    rewrite magic_shape. set (j := magic_pos index (q0 ++ [OStop])).
    split.
    + rewrite count_occ_app. cbn [count_occ].
      destruct (op_eq_dec (OConst (CInt magic)) OStop) as [X|_]; [discriminate X|].
      destruct (op_eq_dec OPop OStop) as [X|_]; [discriminate X|].
      rewrite <- count_occ_app, firstn_skipn. apply single_stop_intro. exact SF.
    + intros LT. assert (j <= List.length q0) as L.
      { unfold j, magic_pos. rewrite app_length in *. cbn [List.length] in *. Lia.lia. }
      rewrite skipn_app. replace (j - List.length q0) with 0 by Lia.lia. cbn [skipn].
      change (OConst (CInt magic) :: OPop :: skipn j q0 ++ [OStop])
        with ((OConst (CInt magic) :: OPop :: skipn j q0) ++ [OStop]).
      rewrite app_assoc. apply ends_with_stop_snoc.
Qed.

(* the side condition is necessary: index = len puts INT POP after STOP (observation, checked on the
   real code; an explicit out-of-range index is outside the property's modes) *)
Example C08_magic_index_past_stop_observation :
  inject (MMagic 5 2) [OConst (CInt 1); OStop] = Ok [OConst (CInt 1); OStop; OConst (CInt 5); OPop].
Proof. vm_compute. reflexivity. Qed.

(* regression witness of C08-F2: index -2 on `1 .` now leaves the result alone *)
Example C08_magic_negative_index_fixed :
  inject (MMagic 5 (-2)) [OConst (CInt 1); OStop] = Ok [OConst (CInt 5); OPop; OConst (CInt 1); OStop].
Proof. vm_compute. reflexivity. Qed.

(* non-vacuity: a framed base with its own call, shared reference and sparse memo keys that
   collide with every fixed key of the injector *)
Definition demo_base : list op :=
  [ONoop; ONoop; OEmptyList; OPut 321987; OMemoize; OMark;
   OGlobal "verif_sink" "record"; OPut 1; OMark; OConst (CInt 7); OTuple; OReduce; OPut 2;
   OGet 321987; OGet 1; OAppends; OStop].

Example C08_nonvacuous_base : exists r sq, base_run demo_base = Some (r, sq) /\ List.length (log sq) = 2.
Proof. do 2 eexists. split; vm_compute; reflexivity. Qed.

Definition demo_args : list arg :=
  [AConst (CStr "x"); AList [AConst (CInt 1); ADict [(CStr "k", AList [])]]; ADict []].

Example C08_nonvacuous_args :
  forallb arg_ok demo_args = true /\ List.length (fst (dec_args demo_args)) = 3 /\ List.length (snd (dec_args demo_args)) = 4 /\
  single_final_stop demo_base = true.
Proof. vm_compute. auto. Qed.

Example C08_nonvacuous_inject :
  forallb (fun md => match inject md demo_base with
                     | Ok p' => match vrun_from p' vm_init with
                                | Ok v => match cur v, meta v, vstopped v with
                                          | [], [], Some _ => true | _, _, _ => false end
                                | Err _ => false end
                     | Err _ => false end)
    [MInsert "c08_sink" "inj" demo_args true true; MInsert "c08_sink" "inj" demo_args true false;
     MInsert "c08_sink" "inj" demo_args false true; MInsert "c08_sink" "inj" demo_args false false;
     MAppend "builtins" "eval" [CStr "1+1"] true; MMagic 77 (-1); MMagic 77 3;
     MCallObj "def f(o): return o" "f" None [CInt 1]; MCallObj "def f(o): return o" "f" (Some "bc") []] = true.
Proof. vm_compute. reflexivity. Qed.

Section Severity.
Variable crepr : const -> string.
Variable std : string -> bool.

(* a callee from outside the standard library (the harness's sink; any pip-installed gadget):
   at least LIKELY_UNSAFE, for every insert / append mode, every base and flag combination *)
Theorem C08_never_likely_safe_nonstd : forall md m n p p' v first_var s protos fs,
  (exists args rf rep, md = MInsert m n args rf rep) \/ (exists cs pop, md = MAppend m n cs pop) ->
  inject md p = Ok p' -> vrun_from p' vm_init = Ok v -> In (EvResolve m n) (log v) ->
  run_from p' (fk_init first_var) = Ok s -> analyze crepr std protos s = Some fs ->
  is_builtins m = false -> std m = false ->
  3 <= doc_rank (verdict fs).
Proof.
  intros md m n p p' v fv s protos fs _ _ Hv Hin Hs HA Hb Hstd.
  exact (log_floor_nonstd crepr std p' fv s v protos fs m n Hs Hv HA Hin Hb Hstd).
Qed.

(* Frame lemma for fickling's symbolic interpreter (all 36 abstract opcodes, any program length),
   driven by the reference VM: while the VM accepts q from a state of the same shape, the symbolic run
   above extra bottom-of-stack items bot is the run without them, and leaves them untouched *)
Theorem C08_frame_symbolic : forall bot q s v v' t,
  shape_fk s = shape_vm v -> vrun_from q v = Ok v' -> run_from q (app_bot bot s) = Ok t ->
  exists s', run_from q s = Ok s' /\ t = app_bot bot s' /\ shape_fk s' = shape_vm v'.
Proof. exact run_unlift. Qed.

(* what fickling's own interpreter records for the injected call, for every call-injecting mode and
   flag combination (for the call-on-object helper: its eval of the function name): the decompiled
   program contains `_var<i> = n(...)` with the callee printed by its NAME, whatever the base pickle
   does (aliases of eval, memo tricks, its own globals named eval ...).  For run_first=False, where the
   whole base pickle separates the REDUCE from its GLOBAL, this uses C08_frame_symbolic *)
Theorem C08_injected_call_decompiled : forall md m n p r sq p' first_var s,
  injected_callee md = Some (m, n) -> plain2 m n = true ->
  single_final_stop p = true -> base_run p = Some (r, sq) ->
  inject md p = Ok p' -> run_from p' (fk_init first_var) = Ok s ->
  exists i es, In (SAssignV i (ECall (EName n) es None)) (body s).
Proof.
  intros md m n p r sq p' fv s HC P _. exact (injected_call_decompiled_all md m n p r sq p' fv s HC P).
Qed.

(* hence builtins eval / exec injected by any mode (what `fickling --inject` with or without
   --run-last / --replace-result, the PyTorch injector and insert_function_call_on_unpickled_object do)
   is rated OVERTLY_MALICIOUS outright: no alias / shadowing side condition, because BadCalls goes by
   the printed callee name and the injected callee is always printed by name *)
Theorem C08_never_likely_safe_builtin : forall md m n p r sq p' first_var s protos fs,
  injected_callee md = Some (m, n) -> plain2 m n = true -> In n ["eval"; "exec"]%string ->
  single_final_stop p = true -> base_run p = Some (r, sq) -> inject md p = Ok p' ->
  run_from p' (fk_init first_var) = Ok s -> analyze crepr std protos s = Some fs ->
  doc_rank (verdict fs) = 5.
Proof.
  intros md m n p r sq p' fv s protos fs HC P Hf _ HB HI Hs HA.
  destruct (injected_call_decompiled_all md m n p r sq p' fv s HC P HB HI Hs) as (i & es & Hin).
  eapply body_floor_bad_call; eauto.
  destruct Hf as [<-|[<-|[]]]; apply mem_str_In; reflexivity.
Qed.
End Severity.

(* a base pickle that itself aliases builtins.eval through BUILD (the C04 alias escape D18) and calls
   the alias: the run-last injection into it is still rated OVERTLY_MALICIOUS *)
Definition alias_base : list op :=
  [ONoop; OGlobal "builtins" "eval"; OConst CNone; OBuild; OMark; OConst (CStr "1"); OTuple; OReduce; OStop].
Example C08_severity_alias_base :
  match inject (MInsert "builtins" "eval" [AConst (CStr "2")] false false) alias_base with
  | Ok p' => match run p', base_run alias_base with
             | Ok s, Some _ =>
                 match analyze (fun _ => "'1'"%string) (fun _ => true) [] s with
                 | Some fs => doc_rank (verdict fs) = 5 /\ single_final_stop alias_base = true
                 | None => False end
             | _, _ => False end
  | Err _ => False
  end.
Proof. vm_compute. auto. Qed.

Example C08_severity_nonvacuous :
  match inject (MInsert "builtins" "eval" [AConst (CStr "1+1")] false false) demo_base with
  | Ok p' => match run p' with
             | Ok s => match analyze (fun _ => "'1+1'"%string) (fun m => negb (String.eqb m "verif_sink")) [] s with
                       | Some fs => doc_rank (verdict fs) = 5
                       | None => False end
             | Err _ => False end
  | Err _ => False
  end.
Proof. vm_compute. reflexivity. Qed.

Print Assumptions C08_base_behaviour.
Print Assumptions C08_frame.
Print Assumptions C08_insert_accepts.
Print Assumptions C08_insert_run_last_keep_accepts.
Print Assumptions C08_refuses.
Print Assumptions C08_args_eval.
Print Assumptions C08_args_eval_consts.
Print Assumptions C08_single_final_stop.
Print Assumptions C08_frame_symbolic.
Print Assumptions C08_injected_call_decompiled.
Print Assumptions C08_never_likely_safe_builtin.
Print Assumptions C08_insert_run_first.
Print Assumptions C08_insert_run_last.
Print Assumptions C08_append.
Print Assumptions C08_append_nopop_stack_refuted.
Print Assumptions C08_call_on_object.
Print Assumptions C08_magic_int.
Print Assumptions C08_never_likely_safe_nonstd.
