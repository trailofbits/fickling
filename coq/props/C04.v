(* C04 -- Detection floor: dangerous imports and calls are never rated LIKELY_SAFE. *)
From Coq Require Import List String ZArith Lia.
From Verif Require Import Base BaseProofs Ops Interp RefVM Severity AnalysisTable Analysis
  FloorProofs OtherCallProofs.
Import ListNotations.
Local Open Scope nat_scope.

Section C04.
(* arbitrary: the floors hold for every such function (the real ones are ast.unparse's constant printer
   and stdlib_list) *)
Variable crepr : const -> string.
Variable std : string -> bool.

(* documented lists of the property vs. the regenerated tables *)
Definition documented_dangerous : list string :=
  ["os"; "posix"; "nt"; "subprocess"; "sys"; "socket"; "shutil"; "urllib"; "torch.hub"; "dill"; "code"].
Definition documented_bad_calls : list string := ["eval"; "exec"; "compile"; "open"].

Theorem C04_tables_cover_documentation :
  forallb (fun m => mem_str m unsafe_modules) documented_dangerous = true /\
  forallb (fun f => mem_str f bad_calls) documented_bad_calls = true.
Proof. split; vm_compute; reflexivity. Qed.

Lemma builtins_not_dangerous : forall b, In b builtins_modules ->
  forall d, In d documented_dangerous -> ~ In d (dotted_prefixes b).
Proof.
  assert (forallb (fun b => forallb (fun d => negb (mem_str d (dotted_prefixes b)))
                                    documented_dangerous) builtins_modules = true) as T
      by (vm_compute; reflexivity).
  intros b Hb d Hd Hin. rewrite forallb_forall in T. specialize (T b Hb).
  rewrite forallb_forall in T. specialize (T d Hd). apply mem_str_In in Hin. rewrite Hin in T. discriminate.
Qed.

(* (1) a global resolved from a module outside the standard library => at least LIKELY_UNSAFE,
   for every program both machines accept, whatever else the program does *)
Theorem C04_nonstd_import : forall p first_var s v protos fs m n,
  run_from p (fk_init first_var) = Ok s -> vrun_from p vm_init = Ok v ->
  analyze crepr std protos s = Some fs ->
  In (EvResolve m n) (log v) -> is_builtins m = false -> std m = false ->
  3 <= doc_rank (verdict fs).
Proof.
  intros p fv s v protos fs m n. exact (log_floor_nonstd crepr std p fv s v protos fs m n).
Qed.

(* (2) a global from a documented dangerous module or a submodule of one (d ranges over the dotted
   prefixes of m, m itself included) => at least LIKELY_OVERTLY_MALICIOUS *)
Theorem C04_dangerous_module : forall p first_var s v protos fs m n d,
  run_from p (fk_init first_var) = Ok s -> vrun_from p vm_init = Ok v ->
  analyze crepr std protos s = Some fs ->
  In (EvResolve m n) (log v) -> In d (dotted_prefixes m) -> In d documented_dangerous ->
  4 <= doc_rank (verdict fs).
Proof.
  intros p fv s v protos fs m n d Hs Hv HA Hin Hd Hdoc.
  apply (log_floor_dangerous crepr std p fv s v protos fs m n d Hs Hv HA Hin); [ | exact Hd | ].
  - destruct (is_builtins m) eqn:B; [|reflexivity]. exfalso.
    apply mem_str_In in B. exact (builtins_not_dangerous m B d Hdoc Hd).
  - destruct C04_tables_cover_documentation as [T _]. rewrite forallb_forall in T. exact (T d Hdoc).
Qed.

(* (3) a call of builtins eval / exec / compile / open made by ANY call-making opcode, whatever
   happens to its value: OVERTLY_MALICIOUS -- unless the callee was reached through a variable fickling
   itself introduced for it (BUILD / SETITEM applied to the global first): known finding D18 *)
Theorem C04_bad_call : forall p first_var s v protos fs b f args kw k,
  run_from p (fk_init first_var) = Ok s -> vrun_from p vm_init = Ok v ->
  analyze crepr std protos s = Some fs ->
  In (EvCall (VGlobal b f) args kw k) (log v) -> In f documented_bad_calls ->
  doc_rank (verdict fs) = 5 \/
  (exists i j es kwe, In (SAssignV i (ECall (EVar j) es kwe)) (body s)).
Proof.
  intros p fv s v protos fs b f args kw k Hs Hv HA Hin Hdoc.
  apply (log_floor_bad_call crepr std p fv s v protos fs b f args kw k Hs Hv HA Hin).
  destruct C04_tables_cover_documentation as [_ T]. rewrite forallb_forall in T.
  apply mem_str_In. exact (T f Hdoc).
Qed.

(* the alias escape is real on the current tree: eval made a variable by BUILD, then called *)
Definition alias_escape : list op :=
  [OGlobal "builtins" "eval"; OConst CNone; OBuild; OMark; OConst (CStr "1"); OTuple; OReduce; OStop].
Example C04_refuted_alias_escape :
  match run alias_escape with
  | Ok s => match analyze (fun _ => "'1'"%string) (fun _ => true) [] s with
            | Some fs => doc_rank (verdict fs) = 3
            | None => False
            end
  | Err _ => False
  end.
Proof. vm_compute. reflexivity. Qed.

(* (4) any OTHER call -- (i) a builtin that is not one of the bad four, (ii) a global from a module outside
   the standard library, (iii) a computed callee (the result of an earlier call / persistent load) --
   made by any call-making opcode, whatever happens to its value: at least LIKELY_UNSAFE, for identifier-like
   names (no blank in the callee's name, no parenthesis in resolved module / attribute names).
   The shared de-duplication set cannot hide the call (by the Analysis.ALL order: when OvertlyBadEvals
   runs the set holds only import texts and texts BadCalls reported as OVERTLY_MALICIOUS).
   The one escape is OvertlyBadEvals' "likely safe" exemption, which goes by NAME only: some stdlib module's
   attribute with the name fickling prints for the callee -- the global's attribute name, or the _var<j>
   fickling introduced -- is resolved somewhere in the pickle (known finding D20-stdlib-name-shadow). *)
Definition other_callee (c : val) : Prop :=
  match c with
  | VGlobal m n => has_space n = false /\
                   ((is_builtins m = true /\ ~ In n documented_bad_calls) \/ (is_builtins m = false /\ std m = false))
  | VObj _ => True
  | _ => False
  end.

Definition shadowed (l : list event) (c : val) : Prop :=
  exists m' nm, In (EvResolve m' nm) l /\ is_builtins m' = false /\ std m' = true /\
                ((exists m, c = VGlobal m nm) \/ (exists j, nm = var_name j)).

Theorem C04_other_call : forall p first_var s v protos fs c args kw k,
  run_from p (fk_init first_var) = Ok s -> vrun_from p vm_init = Ok v ->
  analyze crepr std protos s = Some fs ->
  In (EvCall c args kw k) (log v) -> other_callee c ->
  (forall m n, In (EvResolve m n) (log v) -> has_paren m = false /\ has_paren n = false) ->
  3 <= doc_rank (verdict fs) \/ shadowed (log v) c.
Proof.
  intros p fv s v protos fs c args kw k Hs Hv HA Hin Hc Hident.
  apply (call_floor crepr std p fv s v protos fs c args kw k Hs Hv HA Hin); [|exact Hident].
  destruct c; try exact Hc. exact I.
Qed.

(* the escape is real on the current tree: math.pow resolved and dropped, builtins.pow called *)
Definition shadow_escape : list op :=
  [OGlobal "math" "pow"; OPop; OGlobal "builtins" "pow"; OMark; OConst (CInt 2); OConst (CInt 3); OTuple;
   OReduce; OStop].
Example C04_other_call_refuted_shadow :
  match run shadow_escape, vrun shadow_escape with
  | Ok s, Ok v =>
      match analyze (fun _ => "2"%string) (fun m => String.eqb m "math") [] s with
      | Some fs => doc_rank (verdict fs) = 2 /\
                   In (EvCall (VGlobal "builtins" "pow") [VConst (CInt 2); VConst (CInt 3)] None 0) (log v)
      | None => False
      end
  | _, _ => False
  end.
Proof. vm_compute. split; [reflexivity | left; reflexivity]. Qed.

(* ... and with BUILD applied to the result nothing at all is reported: LIKELY_SAFE *)
Example C04_never_likely_safe_refuted_shadow :
  match run [OGlobal "math" "pow"; OPop; OGlobal "builtins" "pow"; OMark; OConst (CInt 2); OConst (CInt 3);
             OTuple; OReduce; OConst CNone; OBuild; OStop] with
  | Ok s => match analyze (fun _ => "2"%string) (fun m => String.eqb m "math") [] s with
            | Some fs => fs = [] /\ doc_rank (verdict fs) = 0
            | None => False
            end
  | Err _ => False
  end.
Proof. vm_compute. auto. Qed.

(* Corollary: never LIKELY_SAFE.  Whatever the opcode choice, protocol framing, memo use, surrounding
   data or fate of the values: a pickle that resolves a non-stdlib or documented-dangerous global is not
   rated LIKELY_SAFE; one that makes ANY call (bad four included: the alias escape D18 still yields
   LIKELY_UNSAFE) is not rated LIKELY_SAFE unless the callee's printed name is shadowed by a stdlib import. *)
Corollary C04_never_likely_safe : forall p first_var s v protos fs,
  run_from p (fk_init first_var) = Ok s -> vrun_from p vm_init = Ok v ->
  analyze crepr std protos s = Some fs ->
  (forall m n, In (EvResolve m n) (log v) -> has_paren m = false /\ has_paren n = false) ->
  (forall m n, In (EvResolve m n) (log v) -> is_builtins m = false ->
     std m = false \/ (exists d, In d (dotted_prefixes m) /\ In d documented_dangerous) ->
     1 <= doc_rank (verdict fs)) /\
  (forall c args kw k, In (EvCall c args kw k) (log v) ->
     match c with VGlobal _ n => has_space n = false | VObj _ => True | _ => False end ->
     1 <= doc_rank (verdict fs) \/ shadowed (log v) c).
Proof.
  intros p fv s v protos fs Hs Hv HA Hident. split.
  - intros m n Hin Hb [Hstd|(d & Hd & Hdoc)].
    + pose proof (C04_nonstd_import p fv s v protos fs m n Hs Hv HA Hin Hb Hstd). lia.
    + pose proof (C04_dangerous_module p fv s v protos fs m n d Hs Hv HA Hin Hd Hdoc). lia.
  - intros c args kw k Hin Hc.
    destruct (call_floor crepr std p fv s v protos fs c args kw k Hs Hv HA Hin) as [H|H];
      [destruct c; try exact Hc; exact I | exact Hident | left; lia | right; exact H].
Qed.

(* non-vacuity of (4): a computed callee (getattr's result called, value BUILD-ed), and a non-stdlib
   global called through NEWOBJ with the value popped *)
Example C04_other_call_nonvacuous :
  match run [OGlobal "builtins" "getattr"; OMark; OConst (CStr "a"); OConst (CStr "b"); OTuple; OReduce;
             OMark; OConst (CStr "c"); OTuple; OReduce; OConst CNone; OBuild; OStop],
        run [OGlobal "evil.mod" "f"; OEmptyTuple; ONewObj; OPop; OConst CNone; OStop] with
  | Ok s1, Ok s2 =>
      match analyze (fun _ => "'x'"%string) (fun _ => false) [] s1,
            analyze (fun _ => "'x'"%string) (fun _ => false) [] s2 with
      | Some f1, Some f2 => doc_rank (verdict f1) = 3 /\ doc_rank (verdict f2) = 3
      | _, _ => False
      end
  | _, _ => False
  end.
Proof. vm_compute. auto. Qed.

(* non-vacuity: OBJ-made exec call, popped; non-stdlib global only memoised *)
Example C04_nonvacuous :
  match run [OMark; OGlobal "__builtin__" "exec"; OConst (CStr "x"); OObj; OPop;
             OGlobal "evil.mod" "f"; OPut 0; OPop; OConst CNone; OStop] with
  | Ok s => match analyze (fun _ => "'x'"%string) (fun m => negb (String.eqb m "evil.mod")) [] s with
            | Some fs => doc_rank (verdict fs) = 5 /\ List.length fs = 4
            | None => False
            end
  | Err _ => False
  end.
Proof. vm_compute. auto. Qed.

End C04.

Print Assumptions C04_tables_cover_documentation.
Print Assumptions C04_nonstd_import.
Print Assumptions C04_dangerous_module.
Print Assumptions C04_bad_call.
Print Assumptions C04_other_call.
Print Assumptions C04_never_likely_safe.
