(* C09 -- Stepping and tracing mirror the real pickle VM opcode by opcode. *)
From Coq Require Import List ZArith.
From Verif Require Import Base Ops Interp RefVM Shape ShapeProofs.
Import ListNotations.
Local Open Scope nat_scope.

(* Both machines follow the same abstract shape machine, one opcode at a time. *)
Theorem C09_interp_follows_shape : forall o s s',
  step o s = Ok s' -> sh_step o (shape_fk s) = Some (shape_fk s').
Proof. exact fk_follows_shape. Qed.

Theorem C09_refvm_follows_shape : forall o s s',
  vstep o s = Ok s' -> sh_step o (shape_vm s) = Some (shape_vm s').
Proof. exact vm_follows_shape. Qed.

(* For every program (any length) and every prefix length i: if both machines accept the first
   i+1 opcodes, then after them the symbolic stack has the same depth and mark positions and the
   memo the same keys as the reference VM (and both have, or have not, reached STOP). *)
Theorem C09_shape_lockstep : forall p first_var i s' v',
  nth_error (trace_from p (fk_init first_var)) i = Some (Ok s') ->
  nth_error (vtrace_from p vm_init) i = Some (Ok v') ->
  shape_fk s' = shape_vm v'.
Proof. intros p n. exact (shape_lockstep_from p (fk_init n) vm_init eq_refl). Qed.

(* Tracing is passive: it reports exactly the executed prefix -- every opcode once, in order, up to
   and including the first STOP -- and ends in the state untraced interpretation ends in. *)
Theorem C09_trace_passive : forall p s l s2,
  traced_from p s = Ok (l, s2) ->
  run_from p s = Ok s2 /\ exists rest, p = (l ++ rest)%list /\ (rest = [] \/ stopped s2 = true).
Proof.
  induction p as [|o r IH]; intros s l s2 H; cbn [traced_from run_from] in *.
  - inversion H; subst. split; [reflexivity|]. exists []. auto.
  - destruct (stopped s) eqn:St.
    + inversion H; subst. split; [reflexivity|]. exists (o :: r). auto.
    + apply BaseProofs.bind_ok in H. destruct H as (s1 & S1 & H). rewrite S1. cbn [bind].
      apply BaseProofs.bind_ok in H. destruct H as ([l' s3] & T & H). inversion H; subst.
      destruct (IH _ _ _ T) as (R & rest & -> & D). split; [exact R|].
      exists rest. auto.
Qed.

Theorem C09_trace_total : forall p s s2,
  run_from p s = Ok s2 -> exists l, traced_from p s = Ok (l, s2).
Proof.
  induction p as [|o r IH]; intros s s2 H; cbn [traced_from run_from] in *.
  - inversion H; subst. eauto.
  - destruct (stopped s).
    + inversion H; subst. eauto.
    + apply BaseProofs.bind_ok in H. destruct H as (s1 & S1 & H). rewrite S1. cbn [bind].
      destruct (IH _ _ H) as (l & ->). cbn. eauto.
Qed.

(* non-vacuity: a protocol-4 set {1} built with ADDITEMS, memoised, followed by opcodes that need
   the set; both machines accept all 9 opcodes and agree after each *)
Definition demo : list op :=
  [ONoop; OEmptySet; OMemoize; OMark; OConst (CInt 1); OAddItems; ODup; OTuple2; OStop].
Example C09_nonvacuous :
  List.length (trace_from demo (fk_init 0)) = 9 /\
  List.length (vtrace_from demo vm_init) = 9 /\
  forallb (fun r => match r with Ok _ => true | Err _ => false end) (trace_from demo (fk_init 0)) = true /\
  forallb (fun r => match r with Ok _ => true | Err _ => false end) (vtrace_from demo vm_init) = true.
Proof. vm_compute. auto. Qed.

Print Assumptions C09_interp_follows_shape.
Print Assumptions C09_refvm_follows_shape.
Print Assumptions C09_shape_lockstep.
Print Assumptions C09_trace_passive.
Print Assumptions C09_trace_total.
