(* C10 -- All faces of the safety check agree on the same per-pickle severity. *)
From Coq Require Import List Arith.
From Verif Require Import Severity SeverityProofs.
Import ListNotations.
Local Open Scope nat_scope.

(* Severity is a strict total order identical to its documented ranking under every comparison
   operator as implemented -- for all 36 ordered pairs of members of the live enum. *)
Theorem C10_total_order : forall a b, wf a -> wf b ->
  sev_lt a b = (doc_rank a <? doc_rank b) /\
  sev_le a b = (doc_rank a <=? doc_rank b) /\
  sev_eq a b = (doc_rank a =? doc_rank b) /\
  sev_ne a b = negb (doc_rank a =? doc_rank b) /\
  sev_gt a b = (doc_rank b <? doc_rank a) /\
  sev_ge a b = (doc_rank b <=? doc_rank a) /\
  (doc_rank a = doc_rank b -> a = b) /\ doc_rank a < 6 /\ nsev = 6.
Proof. exact ops_spec. Qed.

(* The per-pickle severity is the maximum severity among the reported findings (any number of
   findings), and LIKELY_SAFE exactly when there are none. *)
Theorem C10_severity_is_max : forall rs, Forall wf rs ->
  wf (severity rs) /\
  (forall x, In x rs -> doc_rank x <= doc_rank (severity rs)) /\
  (rs <> [] -> In (severity rs) rs) /\
  ((forall x, In x rs -> x <> LIKELY_SAFE) -> (severity rs = LIKELY_SAFE <-> rs = [])).
Proof.
  intros rs H.
  exact (conj (severity_wf rs H) (conj (severity_upper rs H) (conj (severity_member rs H)
        (severity_safe_iff_nil rs H)))).
Qed.

(* Every face is a function of the same per-pickle rank [rank_of]. *)
Theorem C10_faces_agree : forall thr ps first, wf thr -> Forall (Forall wf) ps -> Forall wf first ->
  face_is_likely_safe first = (rank_of first =? 0) /\
  face_bool first = (rank_of first =? 0) /\
  face_loader_raises thr first = (doc_rank thr <? rank_of first) /\
  (face_cli_exit ps = 0 <-> forall p, In p ps -> rank_of p = 0) /\
  (face_cli_exit ps = 0 \/ face_cli_exit ps = 1) /\
  face_json ps = map (fun p => sev_name (severity p)) ps.
Proof.
  intros thr ps first Ht Hps Hf.
  exact (conj (face_ils_spec first Hf) (conj (face_bool_spec first Hf) (conj (face_loader_spec thr first Ht Hf)
        (conj (proj1 (face_cli_spec ps Hps)) (conj (proj2 (face_cli_spec ps Hps))
        eq_refl))))).
Qed.

Example C10_nonvacuous :
  Forall wf [3; 5; 2] /\ severity [3; 5; 2] = 5 /\ face_cli_exit [[]; [3; 5; 2]] = 1 /\
  face_loader_raises 3 [2; 3] = false /\ face_loader_raises 2 [2; 3] = true.
Proof. vm_compute. repeat split; repeat constructor. Qed.

Print Assumptions C10_total_order.
Print Assumptions C10_severity_is_max.
Print Assumptions C10_faces_agree.
