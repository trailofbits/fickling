(* C14 -- Edits through the sequence interface keep every derived view coherent.
   Model: model/Cache.v; lemmas: proofs/CacheProofs.v.  The theorems are about the generic machine:
   every interpreter, visitor, answer function, opcode encoding and opcode equality; histories of any
   length. *)
From Coq Require Import List String ZArith.
From Verif Require Import Base Ops Cache CacheProofs.
Import ListNotations.
Local Open Scope list_scope.

Section Generic.
Variables X A P R B VA VP VF : Type.
Variable interpret : list X -> res A.
Variable props_of : A -> res P.
Variable ast_view : VA -> A -> R.
Variable props_view : VP -> P -> R.
Variable safety_view : list X -> P -> R.
Variable fresh_view : VF -> list X -> R.
Variable err_ans : err -> R.
Variable data : X -> res (list B).
Variable x_eqb : X -> X -> bool.
Notation RQ := (run_query interpret props_of ast_view props_view safety_view fresh_view err_ans).
Notation SPEC := (spec_answer interpret props_of ast_view props_view safety_view fresh_view err_ans).
Notation RA := (run_action interpret props_of ast_view props_view safety_view fresh_view err_ans x_eqb).
Notation RAS := (run_actions interpret props_of ast_view props_view safety_view fresh_view err_ans x_eqb).

(* After any interleaving of primitive edits (insert / setitem / delitem, index or slice, in or out
   of range), MutableSequence mix-ins (append, extend, +=, extend(self), pop, remove, reverse, clear)
   and reads of any view, every view (decompiled program, dump, import / call summaries, verdict,
   trace, dumps) equals that of a freshly constructed object with the same opcode list, and is the
   pure function SPEC of that list.  The injection helpers are sequences of such inserts. *)
Theorem C14_views_fresh : forall (s0 : pk X A P), cache_ok interpret props_of s0 ->
  forall acts q,
  let s := RAS acts s0 in
  cache_ok interpret props_of s /\
  fst (RQ q s) = fst (RQ q (fresh (opcodes s))) /\
  fst (RQ q s) = SPEC q (opcodes s).
Proof.
  intros s0 OK acts q s. assert (cache_ok interpret props_of s) as OKs by (apply run_actions_ok; exact OK).
  split; [exact OKs|]. apply views_fresh. exact OKs.
Qed.

(* the hypothesis holds for every constructed / loaded object *)
Theorem C14_from_any_pickle : forall l acts q,
  let s := RAS acts (fresh l) in
  fst (RQ q s) = fst (RQ q (fresh (opcodes s))) /\ fst (RQ q s) = SPEC q (opcodes s).
Proof. intros l acts q. apply views_fresh, run_actions_ok, fresh_ok. Qed.

(* each primitive mutator that succeeds resets both caches; one that raises changes nothing *)
Theorem C14_primitives_reset : forall p (s : pk X A P),
  (forall l', apply_prim p (opcodes s) = Ok l' -> fst (do_prim R p s) = fresh l') /\
  (forall e, apply_prim p (opcodes s) = Err e -> fst (do_prim R p s) = s).
Proof.
  intros p s. rewrite do_prim_fst. split; intros x ->; reflexivity.
Qed.

(* dumps() is the concatenation of the current opcodes' encodings in order (the first opcode whose
   encode() raises makes dumps() raise), after any history; reads do not change it *)
Theorem C14_dumps_concat : forall (s0 : pk X A P) acts,
  let s := RAS acts s0 in
  dumps data s = match all_data data (opcodes s) with
                 | Ok ds => Ok (List.concat ds)
                 | Err e => Err e
                 end /\
  (cache_ok interpret props_of s0 -> forall q, dumps data (fst (RA (ARead q) s)) = dumps data s).
Proof.
  intros s0 acts s. split; [unfold dumps; rewrite dumps_loop_spec; reflexivity|].
  intros _ q. unfold dumps. rewrite read_keeps_opcodes. reflexivity.
Qed.

(* the mix-ins, written through the three primitives as collections.abc does, have list semantics *)
Theorem C14_mixins_list_semantics : forall (s : pk X A P),
  (forall x, opcodes (fst (m_append R x s)) = opcodes s ++ [x]) /\
  (forall xs, opcodes (fst (m_extend R xs s)) = opcodes s ++ xs) /\
  (forall i k, py_index (List.length (opcodes s)) i = Some k ->
               opcodes (fst (m_pop R i s)) = list_del k (opcodes s)) /\
  opcodes (fst (m_clear R s)) = [] /\
  opcodes (fst (m_reverse R s)) = rev (opcodes s).
Proof.
  intros s. split; [intros; apply m_append_list|]. split; [intros; apply m_extend_list|].
  split; [intros; apply m_pop_list; assumption|]. split; [apply m_clear_loop_list, le_n|apply m_reverse_list].
Qed.
End Generic.

Definition X0 (i : nat) (o : op) : xop := mkX i o (Ok [EmptyString]) None.
Definition crepr0 (c : const) : string := "'id'"%string.
Definition std0 (m : string) : bool := true.
(* cos\nsystem\n(S'id'\ntR. *)
Definition os_system : list xop :=
  [X0 0 (OGlobal "os" "system"); X0 1 OMark; X0 2 (OConst (CStr "id")); X0 3 OTuple; X0 4 OReduce;
   X0 5 OStop].

(* non-vacuity: a history that reads, edits (negative and out-of-range indices, a mix-in), and
   reads again really changes the answers: has_import flips from True to False *)
Example C14_nonvacuous :
  let acts := [ARead (QProps VHasImport); ARead QSafety;
               APrim (PSet 0 (X0 9 (OGlobal "builtins" "len"))); APrim (PInsert (-100) (X0 10 ONoop));
               AAppend (X0 11 ONoop); APop (-1); ARead (QAst VUnparse)] : list iaction in
  fst (inst_run_query crepr0 std0 pi_id (QProps VHasImport) (fresh os_system)) = ABool true /\
  fst (inst_run_query crepr0 std0 pi_id (QProps VHasImport)
         (inst_run_actions crepr0 std0 pi_id acts (fresh os_system))) = ABool false /\
  List.length (opcodes (inst_run_actions crepr0 std0 pi_id acts (fresh os_system))) = 7.
Proof. vm_compute. repeat split. Qed.

(* DEFECT of the unrepaired tree (repaired by notes/fix_properties_cache.patch): after `del p[0]`
   the program no longer decompiles; has_import raises IndexError once and then answers False,
   where a fresh object with the same opcodes raises. *)
Example C14_refuted_unrepaired_properties_cache :
  let s := inst_run_actions crepr0 std0 pi_id [APrim (PDel 0)] (fresh os_system) in
  exists s1,
    unrepaired_props_query std0 VHasImport s = (AErr EIndex, s1) /\
    fst (unrepaired_props_query std0 VHasImport s1) = ABool false /\
    fst (inst_run_query crepr0 std0 pi_id (QProps VHasImport) (fresh (opcodes s1))) = AErr EIndex.
Proof. eexists. split; [vm_compute; reflexivity|]. vm_compute. split; reflexivity. Qed.

Print Assumptions C14_views_fresh.
Print Assumptions C14_from_any_pickle.
Print Assumptions C14_primitives_reset.
Print Assumptions C14_dumps_concat.
Print Assumptions C14_mixins_list_semantics.
Print Assumptions C14_refuted_unrepaired_properties_cache.
