(* C13 -- Answers depend only on the bytes: deterministic, repeatable, no observer effect.
   Model: model/Cache.v; lemmas: proofs/CacheProofs.v.  The first three theorems are about the generic
   machine: they hold for every interpreter, visitor props_of, answer function and opcode encoding, and
   for query sequences of any length, order and repetition. *)
From Coq Require Import List String ZArith Permutation.
From Coq.Strings Require Import Byte.
From Verif Require Import Base Ops Interp Analysis Cache CacheProofs.
From Verif Require CodecTruncProofs.
Import ListNotations.
Local Open Scope list_scope.

Section Generic.
Variables X A P R B VA VP VF : Type.
Variable interpret : list X -> res A.
Variable props_of : A -> res P.
Variable ast_view : VA -> A -> R.
Variable props_view : VP -> P -> R.
Variable safety_view : list X -> P -> R.
Variable fresh_view : VF -> list X -> R.
Variable err_ans : err -> R.
Variable data : X -> res (list B).
Notation RQ := (run_query interpret props_of ast_view props_view safety_view fresh_view err_ans).
Notation RQS := (run_queries interpret props_of ast_view props_view safety_view fresh_view err_ans).
Notation SPEC := (spec_answer interpret props_of ast_view props_view safety_view fresh_view err_ans).

(* Asking again, after any sequence qs of other read-only questions (decompile, dump, import / call
   summaries, check_safety, trace, dumps), gives the answer the just-constructed object gives, which
   is a pure function SPEC of the opcode list; the questions change neither the opcode list nor the
   serialised bytes. *)
Theorem C13_queries_idempotent : forall (s0 : pk X A P), cache_ok interpret props_of s0 ->
  forall qs q,
  fst (RQ q (RQS qs s0)) = fst (RQ q s0) /\
  fst (RQ q s0) = SPEC q (opcodes s0) /\
  opcodes (RQS qs s0) = opcodes s0 /\
  dumps data (RQS qs s0) = dumps data s0.
Proof. apply queries_idempotent. Qed.

(* the hypothesis holds for every freshly constructed / loaded object *)
Theorem C13_fresh_object : forall l qs q,
  fst (RQ q (RQS qs (fresh l))) = fst (RQ q (fresh l)) /\
  fst (RQ q (fresh l)) = SPEC q l /\
  opcodes (RQS qs (fresh l)) = l /\
  dumps data (RQS qs (fresh l)) = dumps data (fresh l : pk X A P).
Proof. intros l. apply queries_idempotent, fresh_ok. Qed.

(* two different histories of questions agree on every later answer; two objects with the same
   opcode list (a copy, a re-parsed copy) agree whatever each was asked before *)
Theorem C13_order_irrelevant : forall (s0 : pk X A P), cache_ok interpret props_of s0 ->
  (forall qs1 qs2 q, fst (RQ q (RQS qs1 s0)) = fst (RQ q (RQS qs2 s0))) /\
  (forall s1, cache_ok interpret props_of s1 -> opcodes s0 = opcodes s1 ->
              forall q, fst (RQ q s0) = fst (RQ q s1)).
Proof.
  intros s0 OK.
  split; [apply queries_order_irrelevant; exact OK
         | intros s1 OK1 E; apply same_opcodes_same_answers; assumption].
Qed.
End Generic.

(* Re-parsed copy (uses the C06 codec theorems and the token loop's truncation invariance,
   proofs/CodecTruncProofs.v).  For every successful Pickled.load -- a bytes object, a seekable stream
   at any offset with anything before and after the pickle, a non-seekable stream -- with parse r:
   dumps() of the parse succeeds with bytes d; Pickled.load(d) succeeds, consumes exactly d,
   re-serialises to d again (the `dumps` question itself), and has the same opcode classes and
   encodings (strip: everything but the stream position).  Hence for every machine over those (every
   interpreter / analysis that does not look at stream positions) every question gets the same
   answer from the re-parsed copy and from the original, whatever either was asked before.  No
   hypothesis beyond "the load succeeded". *)
Theorem C13_reparse_same :
  forall (A P R VA VP VF : Type)
         (interpret : list (Codec.oprow * option (list byte)) -> res A) (props_of : A -> res P)
         (ast_view : VA -> A -> R) (props_view : VP -> P -> R)
         (safety_view : list (Codec.oprow * option (list byte)) -> P -> R)
         (fresh_view : VF -> list (Codec.oprow * option (list byte)) -> R) (err_ans : err -> R),
  forall k bs off r, Codec.load_model k bs off = Codec.LOk r ->
  exists d r',
    Codec.dumps (Codec.l_ops r) = Ok d /\
    Codec.load_model Codec.KBytes d 0 = Codec.LOk r' /\
    Codec.l_end r' = List.length d /\
    map strip (Codec.l_ops r') = map strip (Codec.l_ops r) /\
    Codec.dumps (Codec.l_ops r') = Ok d /\
    forall qs1 qs2 q,
      fst (run_query interpret props_of ast_view props_view safety_view fresh_view err_ans q
             (run_queries interpret props_of ast_view props_view safety_view fresh_view err_ans qs1
                (fresh (map strip (Codec.l_ops r'))))) =
      fst (run_query interpret props_of ast_view props_view safety_view fresh_view err_ans q
             (run_queries interpret props_of ast_view props_view safety_view fresh_view err_ans qs2
                (fresh (map strip (Codec.l_ops r))))).
Proof.
  intros A P R VA VP VF interpret props_of ast_view props_view safety_view fresh_view err_ans
         k bs off r H.
  destruct (CodecTruncProofs.reparse_model k bs off r H) as (d & r' & sh & D & L & E & EO & D').
  assert (S : map strip (Codec.l_ops r') = map strip (Codec.l_ops r)) by (rewrite EO; symmetry; apply strip_shift).
  exists d, r'. repeat (split; [assumption|]). rewrite S.
  apply queries_order_irrelevant. apply fresh_ok.
Qed.

(* non-vacuity: pickle.dumps([1, 'a'], 2) loaded from offset 2 of a seekable stream that has another
   pickle before it and a truncated opcode after it; and the same through a non-seekable reader *)
Definition ex_b : list byte :=
  [x80; x02; x5d; x71; x00; x28; x4b; x01; x58; x01; x00; x00; x00; x61; x65; x2e].
Example C13_nonvacuous_reparse :
  exists r r' r2,
    Codec.load_model Codec.KSeekable ([x4e; x2e] ++ ex_b ++ [x4b]) 2 = Codec.LOk r /\
    List.length (Codec.l_ops r) = 8 /\ Codec.dumps (Codec.l_ops r) = Ok ex_b /\
    Codec.load_model Codec.KBytes ex_b 0 = Codec.LOk r' /\ Codec.l_end r' = 16 /\
    map strip (Codec.l_ops r') = map strip (Codec.l_ops r) /\ Codec.l_ops r' <> Codec.l_ops r /\
    Codec.load_model Codec.KNonSeekable ([x4e; x2e] ++ ex_b ++ [x4b]) 2 = Codec.LOk r2.
Proof.
  eexists. eexists. eexists. split; [vm_compute; reflexivity|]. split; [reflexivity|].
  split; [vm_compute; reflexivity|]. split; [vm_compute; reflexivity|]. split; [reflexivity|].
  split; [vm_compute; reflexivity|]. split; [vm_compute; discriminate|]. vm_compute. reflexivity.
Qed.

(* Hash seed.  The iteration order of the Python set `defined - used` in
   Interpreter.unused_assignments is the parameter pi, any permutation.  On the instance built from
   the executable models (Interp, Unparse, Analysis): after any questions, under any pi, the
   decompiled text, every import / call summary, the trace and dumps are equal to those of a fresh
   object under the reference order; check_safety gives the same verdict and the same set of
   findings (the lists are permutations of each other). *)
Theorem C13_hashseed_independent : forall crepr std pi, (forall l, Permutation (pi l) l) ->
  forall l qs q,
  let a := fst (inst_run_query crepr std pi q (inst_run_queries crepr std pi qs (fresh l))) in
  let b := fst (inst_run_query crepr std pi_id q (fresh l)) in
  ans_equiv a b /\
  (forall v, q = QAst v -> a = b) /\
  (forall v, q = QProps v -> a = b) /\
  (forall v, q = QFresh v -> a = b) /\
  (forall f1 f2, a = ASafety (Some f1) -> b = ASafety (Some f2) ->
     verdict f1 = verdict f2 /\ forall f, In f f1 <-> In f f2).
Proof.
  intros crepr std pi HP l qs q a b.
  assert (a = inst_spec_answer crepr std pi q l) as Ea by (apply answer_spec, fresh_ok).
  assert (b = inst_spec_answer crepr std pi_id q l) as Eb
    by (apply (answer_spec _ _ _ _ _ _ _ _ _ _ _ _ _ _ []), fresh_ok).
  pose proof (inst_spec_equiv crepr std pi HP q l) as EQ. rewrite <- Ea, <- Eb in EQ.
  split; [exact EQ|]. split; [|split; [|split]]; try (intros v ->; rewrite Ea, Eb; reflexivity).
  intros f1 f2 H1 H2. rewrite H1, H2 in EQ. cbn [ans_equiv] in EQ.
  split; [apply verdict_perm; exact EQ|].
  intros f. split; apply Permutation_in; [|apply Permutation_sym]; exact EQ.
Qed.

(* with the reference order and one interpretation, check_safety of the machine is exactly
   Analysis.analyze, the function C04 / C19 are proved about *)
Theorem C13_safety_is_analyze : forall crepr std names protos s d,
  run_all2 crepr std pi_id names protos s s d = run_all crepr std names protos s d.
Proof.
  induction names as [|n r IH]; intros; cbn [run_all2 run_all]; [reflexivity|].
  rewrite run_analysis2_id. destruct (run_analysis crepr std n protos s d) as [[fs e]|]; [|reflexivity].
  rewrite IH. reflexivity.
Qed.

Definition X0 (i : nat) (o : op) : xop := mkX i o (Ok [EmptyString]) None.
(* cos\ngetcwd\n)R0 cos\ngetpid\n)R0 N. : two unused variables *)
Definition two_unused : list xop :=
  [X0 0 (OGlobal "os" "getcwd"); X0 1 OEmptyTuple; X0 2 OReduce; X0 3 OPop;
   X0 4 (OGlobal "os" "getpid"); X0 5 OEmptyTuple; X0 6 OReduce; X0 7 OPop;
   X0 8 (OConst CNone); X0 9 OStop].
Definition crepr0 (c : const) : string := "None"%string.
Definition std0 (m : string) : bool := true.

(* non-vacuity: a permutation other than the identity, a program with findings, a non-trivial
   history of questions; the verdict is SUSPICIOUS-or-worse and there are >= 2 findings *)
Example C13_nonvacuous :
  (forall l : list (nat * expr), Permutation (rev l) l) /\
  exists fs,
    fst (inst_run_query crepr0 std0 (@rev _) QSafety
           (inst_run_queries crepr0 std0 (@rev _) [QAst VUnparse; QProps VHasCall; QSafety; QFresh VTrace]
              (fresh two_unused))) = ASafety (Some fs) /\
    2 <= List.length fs /\ 2 <= verdict fs.
Proof.
  split; [intros l; apply Permutation_sym, Permutation_rev|].
  eexists. split; [vm_compute; reflexivity|]. vm_compute. split; repeat constructor.
Qed.

(* OBSERVATION (stated, not claimed otherwise): the order of the findings list -- and hence
   detailed_results()["UnusedVariables"], a dict keyed by analysis name -- does depend on pi *)
Example C13_finding_order_depends_on_seed_observation :
  fst (inst_run_query crepr0 std0 (@rev _) QSafety (fresh two_unused)) <>
  fst (inst_run_query crepr0 std0 pi_id QSafety (fresh two_unused)).
Proof. vm_compute. intros H. discriminate H. Qed.

(* DEFECT of the unrepaired tree (repaired by notes/fix_properties_cache.patch): `properties` caches
   an empty ASTProperties before the decompilation that raises.  Pickle `0.` (POP on the empty
   stack; accepted by Pickled.load): has_import raises IndexError the first time and answers False
   the second time. *)
Example C13_refuted_unrepaired_properties_cache :
  exists l s1,
    unrepaired_props_query std0 VHasImport (fresh l) = (AErr EIndex, s1) /\
    fst (unrepaired_props_query std0 VHasImport s1) = ABool false.
Proof.
  exists [X0 0 OPop; X0 1 OStop]. eexists. split; [vm_compute; reflexivity|]. vm_compute. reflexivity.
Qed.

Print Assumptions C13_queries_idempotent.
Print Assumptions C13_fresh_object.
Print Assumptions C13_order_irrelevant.
Print Assumptions C13_reparse_same.
Print Assumptions C13_hashseed_independent.
Print Assumptions C13_safety_is_analyze.
Print Assumptions C13_refuted_unrepaired_properties_cache.
