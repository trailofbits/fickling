(* C11 -- User allowlist additions do not outlive or leak beyond their activation.
   Model: model/Allowlist.v (heap of inner dicts, so that sharing is representable);
   lemmas: proofs/AllowlistProofs.v.  The theorems are about [copy_deep], the behaviour of
   FicklingMLUnpickler.__init__ since the repair of D4 (notes/fix_allowlist_copy.patch; the
   differential check decides which variant the code under test implements); the pinned tree's
   [copy_shallow] is refuted below. *)
From Coq Require Import List String.
From Verif Require Import MLTable Allowlist AllowlistProofs AddSplit AddSplitProofs.
Import ListNotations.
Local Open Scope list_scope.
Local Open Scope string_scope.

(* After ANY history of activate / deactivate / construct-unpickler / probe operations (any
   length, any additions), a probe load resolves g iff g is in the built-in table or in the
   additions of the activation currently in force -- nothing from earlier activations, other
   instances or deactivated environments; with no environment active the load is unmediated. *)
Theorem C11_permitted_exact : forall h g,
  observe copy_deep (run copy_deep init h) (Probe g) =
  Some (match current_adds None h with
        | Some a => of_bool (spec_permits a g)
        | None => Unmediated
        end).
Proof.
  intros h g. pose proof (inv_reachable h) as Hi. pose proof (active_run copy_deep h init) as Ha.
  simpl in Ha. unfold observe. rewrite Ha.
  destruct (current_adds None h) as [a|]; [|reflexivity].
  destruct (fresh_instance _ _ a Hi) as (_ & _ & B).
  destruct (new_unpickler copy_deep _ _ a) as [h1 o1]. simpl in B.
  rewrite B. reflexivity.
Qed.

(* Using the feature never alters the module-level table (the one the MLAllowlist analysis
   reads): a deep snapshot after any history equals the initial one, which is the generated
   table with built-in messages only. *)
Theorem C11_base_unchanged : forall h,
  table_view (run copy_deep init h) = table_view init /\
  table_view init = map (fun mn => (fst mn, map base_item (snd mn))) ml_allowlist.
Proof. exact (fun h => conj (base_unchanged h) view_init). Qed.

(* An unpickler constructed directly keeps exactly BASE + its own additions, whatever is
   activated, constructed or probed afterwards (additions do not travel between instances). *)
Theorem C11_instance_exact : forall h i g,
  observe copy_deep (run copy_deep init h) (ProbeInst i g) =
  Some (match nth_error (constructed h) i with
        | Some a => of_bool (spec_permits a g)
        | None => NoSuchInstance
        end).
Proof.
  intros h i g. destruct (inv_reachable h) as (_ & _ & Hf).
  pose proof (BaseProofs.Forall2_nth_error _ _ _ Hf i) as H. unfold observe.
  destruct (nth_error (insts (run copy_deep init h)) i) as [o|];
    destruct (nth_error (constructed h) i) as [a|]; try contradiction; [|reflexivity].
  destruct H as [_ Hp]. rewrite Hp. reflexivity.
Qed.

(* The additions as the caller writes them -- STRINGS, cut by rsplit(".", 1) in FicklingMLUnpickler.__init__
   (model/AddSplit.v): when every addition contains a dot the constructor succeeds and the pair (m, n) is
   permitted iff it is in the built-in table, or the text m.n was passed AND n has no dot.  So an addition
   permits exactly one pair: not the same text cut at another dot, not its name in another module. *)
Theorem C11_addition_strings_exact : forall adds m n,
  (forall s, In s adds -> nodot s = false) ->
  exists b, permits_strings adds (m, n) = Some b /\
            (b = true <-> (in_base (m, n) = true \/ (In (m ++ "." ++ n) adds /\ nodot n = true))).
Proof. exact permits_strings_exact. Qed.

(* an addition without a dot: the constructor raises, nothing is permitted through it *)
Theorem C11_addition_without_dot_raises : forall adds s g,
  In s adds -> nodot s = true -> permits_strings adds g = None.
Proof. exact no_dot_raises. Qed.

Theorem C11_split_exact : forall s m n,
  rsplit_dot s = Some (m, n) <-> (s = m ++ "." ++ n /\ nodot n = true).
Proof. exact rsplit_exact. Qed.

(* non-vacuity, and the two shapes of seeded changes C07 r4a / r4b: a two-dot addition permits
   (collections.abc, Mapping) and not (collections, abc.Mapping), although both read "collections.abc.Mapping";
   two additions in two unknown modules do not permit each other's names *)
Example C11_addition_strings_nonvacuous :
  permits_strings ["collections.abc.Mapping"] ("collections.abc", "Mapping") = Some true /\
  permits_strings ["collections.abc.Mapping"] ("collections", "abc.Mapping") = Some false /\
  permits_strings ["fractions.Fraction"; "decimal.Decimal"] ("fractions", "Fraction") = Some true /\
  permits_strings ["fractions.Fraction"; "decimal.Decimal"] ("fractions", "Decimal") = Some false /\
  permits_strings ["fractions.Fraction"; "decimal.Decimal"] ("decimal", "Fraction") = Some false /\
  permits_strings ["fractions.Fraction"; "nodot"] ("fractions", "Fraction") = None /\
  rsplit_dot "a." = Some ("a", "") /\ rsplit_dot ".a" = Some ("", "a") /\ rsplit_dot "" = None.
Proof. vm_compute. repeat split. Qed.

(* non-vacuity: histories in which the additions matter *)
Definition np_zeros : gname := ("numpy", "zeros").
Definition np_dtype : gname := ("numpy", "dtype").
Definition od : gname := ("fractions", "Fraction").            (* a module NOT in the table *)
Definition counter : gname := ("collections", "Counter").     (* new member of an allow-listed module *)

Example C11_nonvacuous :
  let h := [Activate [np_zeros; od]; Probe np_zeros; Construct [od]; Deactivate; Activate []] in
  current_adds None h = Some [] /\
  observe copy_deep (run copy_deep init h) (Probe np_zeros) = Some Blocked /\
  observe copy_deep (run copy_deep init h) (Probe np_dtype) = Some Allowed /\
  observe copy_deep (run copy_deep init [Activate [np_zeros; od]]) (Probe np_zeros) = Some Allowed /\
  observe copy_deep (run copy_deep init h) (ProbeInst 0 od) = Some Allowed /\
  observe copy_deep (run copy_deep init h) (ProbeInst 0 np_zeros) = Some Blocked /\
  in_base np_dtype = true /\ in_base np_zeros = false /\ in_base od = false /\
  in_base counter = false /\ in_base ("collections", "OrderedDict") = true.
Proof. vm_compute. repeat split. Qed.

(* the shallow copy of the pinned tree (defect D4) *)

(* An addition that names a new member of an allow-listed module is written into the shared
   inner dict by the first load: it stays permitted after deactivation and re-activation with
   no additions ... *)
Lemma C11_refuted_member_persists :
  let h := [Activate [np_zeros]; Probe np_zeros; Deactivate; Activate []] in
  current_adds None h = Some [] /\ spec_permits [] np_zeros = false /\
  observe copy_shallow (run copy_shallow init h) (Probe np_zeros) = Some Allowed.
Proof. vm_compute. repeat split. Qed.

(* ... the module-level table itself is altered ... *)
Lemma C11_refuted_base_altered :
  let h := [Activate [np_zeros]; Probe np_dtype] in
  table_delta (run copy_shallow init h) = [("numpy", ["zeros"])] /\
  view_eqb (table_view (run copy_shallow init h)) (table_view init) = false.
Proof. vm_compute. repeat split. Qed.

(* ... and the addition of one directly constructed instance leaks into every other one. *)
Lemma C11_refuted_instance_leak :
  let h := [Construct [counter]; Construct []] in
  nth_error (constructed h) 1 = Some [] /\
  observe copy_shallow (run copy_shallow init h) (ProbeInst 1 counter) = Some Allowed.
Proof. vm_compute. repeat split. Qed.

(* Additions naming NEW modules do not leak even with the shallow copy, which is why the test
   suite (whose only addition set names pickle / _pickle) cannot see D4. *)
Lemma C11_new_module_ok_observation :
  let h := [Activate [od]; Probe od; Deactivate; Activate []] in
  observe copy_shallow (run copy_shallow init h) (Probe od) = Some Blocked /\
  view_eqb (table_view (run copy_shallow init h)) (table_view init) = true.
Proof. vm_compute. repeat split. Qed.

Print Assumptions C11_permitted_exact.
Print Assumptions C11_base_unchanged.
Print Assumptions C11_instance_exact.
Print Assumptions C11_addition_strings_exact.
Print Assumptions C11_addition_without_dot_raises.
Print Assumptions C11_split_exact.
