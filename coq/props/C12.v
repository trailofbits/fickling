(* C12 -- Hook lifecycle: protection holds while armed and is restored exactly on exit.
   Model: model/Hooks.v; lemmas: proofs/HooksProofs.v. *)
From Coq Require Import List String.
From Verif Require Import Allowlist Hooks HooksProofs.
Import ListNotations.
Local Open Scope list_scope.
Local Open Scope nat_scope.

(* After ANY history (any length, any nesting, well formed or not), a load through an entry point
   whose binding is the checked loader returns only for a pickle the analysis did not flag, and
   refuses a flagged one before anything is resolved; if the ML environment is active underneath
   (the checked loader re-enters through pickle.loads) its allowlist applies on top.  A load
   through an entry point bound to the ML environment with additions a resolves exactly the
   longest prefix of the pickle's globals inside BASE + a; the first global outside aborts the
   load with the unsafe-file error and is not resolved.  The checked loader never reaches itself. *)
Theorem C12_probe_protected : forall h e p,
  let s := hrun h_init h in
  fst (probe s e p) <> RecursionErr /\
  (binding_of s e = Checked ->
     (flagged p = true -> probe s e p = (UnsafeAnalysis, [])) /\
     (fst (probe s e p) = Returned -> flagged p = false) /\
     (forall a, pls s = ML a -> flagged p = false -> probe s e p = ml_resolve a (globals p))) /\
  (forall a, binding_of s e = ML a ->
     probe s e p = (ml_result a (globals p), take_ok a (globals p)) /\
     Forall (fun g => spec_permits a g = true) (snd (probe s e p)) /\
     (forall g, first_bad a (globals p) = Some g ->
        fst (probe s e p) = UnsafeML g /\ spec_permits a g = false /\ ~ In g (snd (probe s e p)))).
Proof.
  intros h e p s. split; [apply probe_no_recursion; apply pls_never_checked|]. split.
  - intros H. destruct (probe_checked s e p H) as [A B]. split; [exact A|]. split; [exact B|].
    intros a Ha Hf. apply probe_checked_over_ml; assumption.
  - intros a H. pose proof (probe_ml s e p a H) as E. split; [exact E|]. rewrite E. simpl. split.
    + exact (MLNestProofs.take_permitted_all a (globals p)).
    + intros g Hg. unfold ml_result. rewrite Hg. split; [reflexivity|]. split.
      * exact (MLNestProofs.first_refused_refused a _ g Hg).
      * exact (MLNestProofs.first_refused_not_taken a _ g Hg).
Qed.

(* Which entry points are protected, in terms of the mechanisms in force (ALL histories):
   pickle.loads, _pickle.load, _pickle.loads and pickle.Unpickler are the ML environment's iff one
   is in force (with exactly its additions), else the originals -- the global check never touches
   them, and a context gives them back on exit exactly as it found them on entry.  ("In force" is
   scoped, see [Hooks.ghost]: what is switched on or off inside a context ends with it.) *)
Theorem C12_ml_covers_all_four : forall h,
  let s := hrun h_init h in
  let g := grun g_init h in
  pls s = ml_binding (g_ml g) /\ cl s = ml_binding (g_ml g) /\ cls s = ml_binding (g_ml g) /\
  pu s = ml_binding (g_ml g).
Proof. exact others_reachable. Qed.

(* "While any protection is in force" for pickle.load, stated against the mechanisms rather than
   against the binding.
   (a) ALL histories, no side condition: pickle.load is the checked loader or follows the ML
       environment in force; if the global check or the ML environment is in force, pickle.load is
       a protection.  (Before the repair of context.py this needed "nothing is switched on inside
       a context": the former counterexamples are the regression Examples below.)
   (b) If hooks are REMOVED only while no context is open ([rm_outside]), an open context means
       pickle.load is protected too.  (Removal inside an open context is the case the property
       itself sets aside: "after removal with no context open"; see
       C12_remove_with_open_context_observation.) *)
Theorem C12_switched_on_protected : forall h,
  let s := hrun h_init h in
  let g := grun g_init h in
  (pl s = Checked \/ pl s = ml_binding (g_ml g)) /\
  (mech_on g -> pl s <> Orig) /\
  List.length (ctxs s) = g_depth g.
Proof. exact switched_on_protected. Qed.

Theorem C12_armed_protected : forall h,
  rm_outside 0 h = true ->
  let s := hrun h_init h in
  let g := grun g_init h in
  (mech_on g \/ 0 < g_depth g -> pl s <> Orig) /\
  List.length (ctxs s) = g_depth g.
Proof. exact armed_protected. Qed.

(* Leaving a context (either way), after a well-bracketed body of any length and nesting depth
   that may arm, activate, remove, enter and leave whatever it likes, from ANY state s0: the
   complete state -- every one of the five bindings and the stack of enclosing contexts -- is
   exactly what it was immediately before the matching enter.  Nothing in force on entry is
   dropped, nothing switched on inside is left behind, no half-restored state exists. *)
Theorem C12_leave_restores_entry : forall s0 seg lv,
  balanced seg = true -> is_leave lv = true ->
  let s2 := hstep (hrun s0 (HEnter :: seg)) lv in
  s2 = s0 /\ (forall e, binding_of s2 e = binding_of s0 e) /\ ctxs s2 = ctxs s0.
Proof.
  intros s0 seg lv Hb Hl s2. assert (E : s2 = s0) by (apply leave_restores; assumption).
  rewrite E. repeat split; reflexivity.
Qed.

(* ... hence inside any history a completed context leaves no trace *)
Theorem C12_completed_context_no_trace : forall pre seg lv rest,
  balanced seg = true -> is_leave lv = true ->
  hrun h_init (pre ++ HEnter :: seg ++ lv :: rest) = hrun h_init (pre ++ rest).
Proof.
  intros pre seg lv rest Hb Hl. rewrite !(hrun_app pre).
  change (HEnter :: seg ++ lv :: rest) with ((HEnter :: seg) ++ lv :: rest).
  rewrite hrun_app.
  change (hrun ?s (lv :: rest)) with (hrun (hstep s lv) rest).
  rewrite (leave_restores (hrun h_init pre) seg lv Hb Hl). reflexivity.
Qed.

(* After a removal with no context open all five bindings are the originals, and they stay so
   for as long as nothing is switched on again. *)
Theorem C12_remove_restores_all : forall h rest,
  let s := hrun h_init (h ++ [HRemove]) in
  ctxs s = [] -> forallb inert rest = true ->
  all_orig s /\ all_orig (hrun s rest).
Proof.
  intros h rest s Hc Hi.
  assert (Ho : all_orig s).
  { unfold s. rewrite hrun_app. simpl. repeat split. }
  split; [exact Ho|]. apply inert_keeps_orig; assumption.
Qed.

(* Leaving by exception is leaving normally. *)
Theorem C12_exception_exit_same : forall h s, hrun s (map norm_exc h) = hrun s h.
Proof.
  intros h. induction h as [|o r IH]; intros s; simpl; [reflexivity|].
  rewrite IH. destruct o; reflexivity.
Qed.

Definition sink : gname := ("verif_sink", "record").
Definition od : gname := ("fractions", "Fraction").

Example C12_nonvacuous_nesting :
  let body := [HEnter; HProbe PLoad (mkP true [sink]); HActivate []; HEnter; HRemove; HLeaveExc; HLeave;
               HArm; HMake] in
  balanced body = true /\
  let s0 := hrun h_init [HActivate [od]] in
  pl s0 = ML [od] /\
  pl (hrun s0 (HEnter :: body)) = Checked /\
  pls (hrun s0 (HEnter :: body)) = ML [od] /\
  hstep (hrun s0 (HEnter :: body)) HLeaveExc = s0 /\
  probe (hrun s0 (HEnter :: body)) PLoad (mkP false [od; sink]) = (UnsafeML sink, [od]).
Proof. vm_compute. repeat split. Qed.

Example C12_nonvacuous_rm_outside :
  let h := [HArm; HEnter; HActivate [od]; HEnter; HLeave; HLeaveExc; HRemove; HMake; HEnter; HArm] in
  rm_outside 0 h = true /\ g_depth (grun g_init h) = 1 /\ g_armed (grun g_init h) = true /\
  pl (hrun h_init h) = Checked /\ map s_pl (ctxs (hrun h_init h)) = [Orig] /\
  rm_outside 0 [HEnter; HRemove] = false.
Proof. vm_compute. repeat split. Qed.

Example C12_nonvacuous_mech_on :
  let h := [HEnter; HActivate [od]; HEnter; HRemove; HLeave] in
  g_ml (grun g_init h) = Some [od] /\ pl (hrun h_init h) = ML [od] /\ pu (hrun h_init h) = ML [od] /\
  g_depth (grun g_init h) = 1.
Proof. vm_compute. repeat split. Qed.

Example C12_nonvacuous_remove :
  let s := hrun h_init ([HArm; HEnter; HActivate []; HLeave] ++ [HRemove]) in
  ctxs s = [] /\ forallb inert [HProbe PLoads (mkP true [sink]); HRemove; HLeave; HMake] = true.
Proof. vm_compute. repeat split. Qed.

(* regression: the two histories that were findings of the tree before the repair of
   fickling/context.py (KNOWN_FINDINGS C12-activate-inside-context, C12-arm-inside-context) *)

(* The ML environment activated inside an open context ends with the context as a whole: all five
   entry points are what they were on entry -- no state in which pickle.load is unprotected while
   the other entry points still are the environment's. *)
Example C12_regression_activate_in_ctx :
  let h := [HEnter; HActivate []; HLeave] in
  hrun h_init h = h_init /\
  g_ml (grun g_init h) = None /\
  (forall e, binding_of (hrun h_init h) e = Orig) /\
  (* ... and while the block is open every entry point is the environment's *)
  (forall e, binding_of (hrun h_init [HEnter; HActivate []]) e = ML []) /\
  probe (hrun h_init [HEnter; HActivate []]) PLoad (mkP true [sink]) = (UnsafeML sink, []) /\
  (* an enclosing environment is re-instated, not dropped *)
  hrun h_init [HActivate [od]; HEnter; HActivate []; HLeave] = hrun h_init [HActivate [od]].
Proof. vm_compute. repeat split; intros []; reflexivity. Qed.

(* The global check armed inside an open context ends with the context: the state after the leave
   is the entry state, as "restores precisely the protection that was in force on entry ... nor
   leaving one behind" demands; under the scoped reading of "in force" no protection is in force
   afterwards, so the first clause is not concerned. *)
Example C12_regression_arm_in_ctx :
  let h := [HEnter; HArm; HLeave] in
  hrun h_init h = h_init /\
  g_armed (grun g_init h) = false /\
  probe (hrun h_init [HEnter; HArm]) PLoad (mkP true [sink]) = (UnsafeAnalysis, []) /\
  hrun h_init [HArm; HEnter; HArm; HLeave] = hrun h_init [HArm].
Proof. vm_compute. repeat split. Qed.

(* A manager constructed early and entered later restores what was in force when it was ENTERED
   (construction saves nothing). *)
Example C12_regression_early_construction :
  hrun h_init [HMake; HArm; HEnter; HLeave] = hrun h_init [HArm] /\
  pl (hrun h_init [HMake; HArm; HEnter; HLeave]) = Checked.
Proof. vm_compute. repeat split. Qed.

(* Why "with no context open" is part of the property: a removal while a context is open is
   undone by the later leave (the leave restores what was in force on entry). *)
Lemma C12_remove_with_open_context_observation :
  let h := [HArm; HEnter; HRemove] in
  all_orig (hrun h_init h) /\ ctxs (hrun h_init h) <> [] /\
  pl (hrun h_init (h ++ [HLeave])) = Checked.
Proof. vm_compute. repeat split. discriminate. Qed.

(* The global check and the contexts cover pickle.load only (documented coverage). *)
Lemma C12_global_check_covers_load_only_observation :
  probe (hrun h_init [HArm]) PLoad (mkP true [sink]) = (UnsafeAnalysis, []) /\
  probe (hrun h_init [HArm]) PLoads (mkP true [sink]) = (Returned, [sink]) /\
  probe (hrun h_init [HArm]) PUnp (mkP true [sink]) = (Returned, [sink]).
Proof. vm_compute. repeat split. Qed.

Print Assumptions C12_probe_protected.
Print Assumptions C12_ml_covers_all_four.
Print Assumptions C12_switched_on_protected.
Print Assumptions C12_armed_protected.
Print Assumptions C12_leave_restores_entry.
Print Assumptions C12_completed_context_no_trace.
Print Assumptions C12_remove_restores_all.
Print Assumptions C12_exception_exit_same.
