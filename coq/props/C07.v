(* C07 -- Safe ML environment mediates every global, including in nested unpicklings.
   Model: model/MLNest.v (a load is a tree of unpicklings); lemmas: proofs/MLNestProofs.v;
   generated tables: gen/LoaderPaths.v (observed from the installed torch and from
   activate_safe_ml_environment on every run), gen/MLTable.v. *)
From Coq Require Import List String.
From Verif Require Import Allowlist LoaderPaths MLNest MLNestProofs.
Import ListNotations.
Local Open Scope string_scope.
Local Open Scope list_scope.

(* If every unpickling in the tree is entered through a replaced attribute then -- for trees of
   ANY depth and shape, any additions -- the load behaves as the stock load cut at the first
   global outside BASE + additions: everything resolved is permitted; that first global aborts
   the whole load with the unsafe-file error, is itself not resolved, and nothing after it is;
   if there is none the load is exactly the stock one. *)
Theorem C07_mediated_tree : forall a n,
  all_mediated n = true ->
  run_ml a n = restrict a (run_stock n) /\
  Forall (fun g => spec_permits a g = true) (fst (run_ml a n)) /\
  (forall g, first_refused a (fst (run_stock n)) = Some g ->
     snd (run_ml a n) = Unsafe g /\ spec_permits a g = false /\
     (exists rest, fst (run_stock n) = fst (run_ml a n) ++ g :: rest) /\
     ~ In g (fst (run_ml a n))) /\
  (first_refused a (fst (run_stock n)) = None -> run_ml a n = run_stock n).
Proof.
  intros a n Hm. pose proof (mediated_tree_eq a n Hm) as E. split; [exact E|].
  pose proof (first_refused_spec a (fst (run_stock n))) as S.
  rewrite E. unfold restrict. destruct (first_refused a (fst (run_stock n))) as [b|] eqn:Ef.
  - destruct S as [Hb Hr]. cbn [fst snd]. split; [apply take_permitted_all|]. split; [|discriminate].
    intros g Hg. injection Hg as <-. split; [reflexivity|]. split; [exact Hb|]. split; [exact Hr|].
    apply first_refused_not_taken. exact Ef.
  - destruct S as [H1 H2]. split; [exact H2|]. split; [discriminate|reflexivity].
Qed.

(* The generated table: the four entry points are replaced, and EVERY (loader callable, container) pair
   performs all of its unpicklings through replaced attributes -- including the payload object of a
   legacy / zip container, which torch unpickles with its own subclass of pickle.Unpickler (the
   environment replaces that attribute too since the repair of D11).  Any unmediated pair appearing in
   the regenerated table makes this theorem fail. *)
Theorem C07_paths_mediated :
  forallb mediated entry_points = true /\
  forall row, In row loader_paths -> pair_mediated row = true.
Proof. exact (conj entry_points_mediated paths_mediated_all). Qed.

(* Together: a load through any of the four entry points whose nested calls follow the table is
   fully mediated, at every depth, in every container format. *)
Theorem C07_safe_conforming : forall a n,
  In (kind_of n) entry_points -> conforms n = true ->
  run_ml a n = restrict a (run_stock n).
Proof. exact safe_conforming. Qed.

(* non-vacuity: a conforming tree three levels deep *)
Definition sink : gname := ("verif_sink", "record").
Definition ploads : gname := ("pickle", "loads").
Definition cloads : gname := ("_pickle", "loads").
Definition np_dtype : gname := ("numpy", "dtype").

Definition deep_tree : node :=
  Node "pickle.load"
    [EGlob np_dtype;
     ECall ploads Bare true
       [Node "pickle.loads"
          [ECall cloads Bare true
             [Node "_pickle.loads"
                [ECall lfb Bare false [Node "pickle.load" [EGlob np_dtype; EGlob sink; EGlob np_dtype]]]]]];
     EGlob np_dtype].

Example C07_nonvacuous :
  In (kind_of deep_tree) entry_points /\ conforms deep_tree = true /\ uses d11 deep_tree = false /\
  all_mediated deep_tree = true /\
  run_stock deep_tree = ([np_dtype; ploads; cloads; lfb; np_dtype; sink; np_dtype], OtherError) /\
  run_ml [ploads; cloads] deep_tree = ([np_dtype; ploads; cloads; lfb; np_dtype], Unsafe sink) /\
  run_ml [] deep_tree = ([np_dtype], Unsafe ploads).
Proof. vm_compute. repeat split. left. reflexivity. Qed.

(* the two paths that were unmediated before the environment replaced pickle.Unpickler (D11) *)
Definition legacy_tree : node :=
  Node "pickle.loads"
    [ECall lfb Legacy true
       [Node "pickle.load" []; Node "pickle.load" []; Node "pickle.load" [];
        Node "pickle.Unpickler" [EGlob sink];
        Node "pickle.load" []]].

Definition zip_tree : node :=
  Node "pickle.loads" [ECall lfb Zip true [Node "pickle.Unpickler" [EGlob sink]]].

(* regression witnesses of D11 (repaired): a global outside the allowlist inside the payload now aborts
   the load before it is resolved *)
Lemma C07_d11_legacy_now_mediated :
  conforms legacy_tree = true /\ In (kind_of legacy_tree) entry_points /\
  in_base lfb = true /\ spec_permits [] sink = false /\
  all_mediated legacy_tree = true /\
  run_ml [] legacy_tree = ([lfb], Unsafe sink).
Proof. vm_compute. repeat split. right. left. reflexivity. Qed.

Lemma C07_d11_zip_now_mediated :
  conforms zip_tree = true /\ In (kind_of zip_tree) entry_points /\
  spec_permits [] sink = false /\
  all_mediated zip_tree = true /\
  run_ml [] zip_tree = ([lfb], Unsafe sink).
Proof. vm_compute. repeat split. right. left. reflexivity. Qed.

(* a bare payload handed to _load_from_bytes IS mediated (it is read as the container's first
   header pickle through the hooked pickle.load) -- the one shape the test suite has *)
Lemma C07_bare_payload_mediated_observation :
  run_ml [] (Node "pickle.loads" [ECall lfb Bare false [Node "pickle.load" [EGlob sink]]]) =
  ([lfb], Unsafe sink).
Proof. vm_compute. reflexivity. Qed.

Print Assumptions C07_mediated_tree.
Print Assumptions C07_paths_mediated.
Print Assumptions C07_safe_conforming.
