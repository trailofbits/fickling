(* C16 -- PyTorch payload insertion changes only the model pickle and keeps the model.
   Model: model/Torch.v (fickling/pytorch.py:41-156, injection="insertion"); lemmas: proofs/TorchProofs.v.
   PARTIAL: the zip container and what torch.load reconstructs are outside the model (differential). *)
From Coq Require Import List String.
From Verif Require Import Base Poly Torch TorchProofs.
Import ListNotations.
Open Scope string_scope.

(* For every pickle-level injection function and every archive of ANY length: the injected archive has the
   same member names in the same order, the same number of members, and every member whose name does not
   end in "/data.pkl" is byte-identical at the same position. *)
Theorem C16_names_and_others_preserved : forall (inj : string -> string) a a',
  inject_insertion inj a = Some a' ->
  map fst a' = map fst a /\ List.length a' = List.length a /\
  forall i n b, nth_error a i = Some (n, b) -> is_model n = false -> nth_error a' i = Some (n, b).
Proof.
  intros inj a a' H. unfold inject_insertion in H. destruct (first_model a) as [b0|]; [|discriminate].
  inversion H; subst. split; [apply rewrite_names|]. split; [apply map_length|].
  intros i n b Hi M. rewrite (rewrite_nth _ _ _ _ _ Hi), M. reflexivity.
Qed.

(* With exactly one member ending in "/data.pkl" (what torch.save / torch.jit.save write), injection is
   defined, that member becomes [inj] of its ORIGINAL bytes, and every other position is unchanged. *)
Theorem C16_model_pickle : forall (inj : string -> string) a, unique_data_pkl a = true ->
  exists a' i n b, inject_insertion inj a = Some a' /\
    nth_error a i = Some (n, b) /\ is_model n = true /\
    nth_error a' i = Some (n, inj b) /\
    forall j m c, j <> i -> nth_error a j = Some (m, c) -> nth_error a' j = Some (m, c).
Proof.
  intros inj a U. unfold unique_data_pkl in U. apply PeanoNat.Nat.eqb_eq in U.
  destruct (unique_model a U) as [i [n [b [H [M [F O]]]]]].
  exists (rewrite a (inj b)), i, n, b. unfold inject_insertion. rewrite F.
  split; [reflexivity|]. split; [exact H|]. split; [exact M|].
  split; [rewrite (rewrite_nth _ _ _ _ _ H), M; reflexivity|].
  intros j m c J Hj. rewrite (rewrite_nth _ _ _ _ _ Hj), (O j m c J Hj). reflexivity.
Qed.

(* File level, for every file system, paths, identified formats and flags (output path different from the
   input path): a refused or failing call leaves the file system exactly as it was (validation happens
   before anything is written); a successful call without overwrite leaves the input's members unchanged
   and changes exactly the output path, which holds the injected archive; with overwrite the input path
   holds the injected archive, the output path does not exist afterwards, and no other path changed. *)
Theorem C16_input_untouched : forall (inj : string -> string) fs path out formats force overwrite,
  out <> path ->
  match inject_payload inj fs path out formats force overwrite with
  | (TRaised _, fs') => fs' = fs
  | (TDone, fs') =>
      exists a a', flookup fs path = Some a /\ validate formats force = Ok tt /\
                   inject_insertion inj a = Some a' /\
        if overwrite then
          flookup fs' path = Some a' /\ flookup fs' out = None /\
          forall p, p <> path -> p <> out -> flookup fs' p = flookup fs p
        else
          flookup fs' path = Some a /\ flookup fs' out = Some a' /\
          forall p, p <> out -> flookup fs' p = flookup fs p
  end.
Proof.
  intros inj fs path out formats force overwrite Hne. unfold inject_payload.
  destruct (flookup fs path) as [a|] eqn:L; [|reflexivity].
  destruct (validate formats force) as [[]|e] eqn:V; [|reflexivity].
  destruct (inject_insertion inj a) as [a'|] eqn:I; [|reflexivity].
  destruct overwrite; exists a, a'; repeat split; try reflexivity; try assumption;
    intros; autorewrite with tfs; auto.
Qed.

(* What validation lets through: a recognised file that is PyTorch v1.3 or TorchScript v1.4 (or force). *)
Theorem C16_validation : forall formats force,
  validate formats force = Ok tt <->
  formats <> [] /\ (force = true \/ mem_str F_PT13 formats = true \/ mem_str F_TS14 formats = true).
Proof.
  intros formats force. unfold validate.
  destruct formats as [|f r]; [destruct force; cbn; intuition congruence|].
  destruct (mem_str F_PT13 (f :: r)), (mem_str F_TS14 (f :: r)), (mem_str F_PKL (f :: r)), force;
    cbn; intuition congruence.
Qed.

(* injection is refused exactly when no member ends in "/data.pkl" *)
Theorem C16_defined_iff_model_member : forall (inj : string -> string) a,
  inject_insertion inj a = None <-> count_model a = 0.
Proof.
  intros inj a. unfold inject_insertion. destruct (first_model a) eqn:F.
  - split; [discriminate|]. intros C. apply first_model_none in C. congruence.
  - split; [intros _; apply first_model_none; exact F|reflexivity].
Qed.

Definition ex_archive : archive :=
  [("m/data.pkl", "PICKLE"); ("m/byteorder", "little"); ("m/data/0", "tensor-bytes"); ("m/version", "3")].
Definition ex_inj (b : string) : string := "EXEC+" ++ b.

Example C16_nonvacuous :
  unique_data_pkl ex_archive = true /\
  inject_insertion ex_inj ex_archive =
    Some [("m/data.pkl", "EXEC+PICKLE"); ("m/byteorder", "little"); ("m/data/0", "tensor-bytes"); ("m/version", "3")] /\
  inject_payload ex_inj [("in.pt", ex_archive); ("keep", [])] "in.pt" "out.pt" ["PyTorch v1.3"] false true =
    (TDone, [("in.pt", [("m/data.pkl", "EXEC+PICKLE"); ("m/byteorder", "little"); ("m/data/0", "tensor-bytes");
                        ("m/version", "3")]); ("keep", [])]) /\
  fst (inject_payload ex_inj [("in.pt", ex_archive)] "in.pt" "out.pt" ["PyTorch v0.1.10"] false false)
    = TRaised EValue /\
  fst (inject_payload ex_inj [("in.pt", [("data.pkl", "P")])] "in.pt" "out.pt" ["PyTorch v1.3"] false false)
    = TRaised EValue.
Proof. vm_compute. repeat split. Qed.

(* Two members ending in "/data.pkl": the loop gives EVERY such member the injected pickle of the FIRST
   one; the second member's own pickle is lost, whatever the injection function is.  torch.save writes
   exactly one, so C16 as quantified (files saved by torch) is not affected; C16_model_pickle carries
   the hypothesis. *)
Example C16_refuted_two_data_pkl : forall (inj : string -> string) x y,
  inject_insertion inj [("a/data.pkl", x); ("b/data.pkl", y); ("b/version", "3")] =
    Some [("a/data.pkl", inj x); ("b/data.pkl", inj x); ("b/version", "3")] /\
  unique_data_pkl [("a/data.pkl", x); ("b/data.pkl", y); ("b/version", "3")] = false.
Proof. intros. split; reflexivity. Qed.

Print Assumptions C16_names_and_others_preserved.
Print Assumptions C16_model_pickle.
Print Assumptions C16_input_untouched.
Print Assumptions C16_validation.
Print Assumptions C16_defined_iff_model_member.
