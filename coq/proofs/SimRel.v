(* The simulation relation between the reference VM (RefVM) and fickling's symbolic interpreter
   (Interp): the symbolic expression denotes the VM value, given the environment [al] of the values
   of fickling's variables _var<i>; mutable nodes correspond in lockstep (node i <-> heap object i). *)
From Coq Require Import List String ZArith.
From Verif Require Import BaseProofs Interp RefVM.
Import ListNotations.
Local Open Scope nat_scope.
Local Open Scope list_scope.

Definition env := list val.    (* value of _var<i> is nth i *)

Inductive rel (al : env) : expr -> val -> Prop :=
| RConst c : rel al (EConst c) (VConst c)
| RGlobal m n : rel al (EName n) (VGlobal m n)
| RTuple es vs : Forall2 (rel al) es vs -> rel al (ETuple es) (VTuple vs)
| RNode i : rel al (ENode i) (VRef i)
| RVar i x : nth_error al i = Some x -> rel al (EVar i) x
| RFrozen es vs :
    Forall2 (rel al) es vs ->
    rel al (ECall (EName "frozenset") [ESetLit es] None) (VFrozen vs).

Definition rel_pair (al : env) (p : expr * expr) (q : val * val) : Prop :=
  rel al (fst p) (fst q) /\ rel al (snd p) (snd q).

Inductive rel_node (al : env) : node -> hobj -> Prop :=
| RN_list es vs : Forall2 (rel al) es vs -> rel_node al (NList es) (HList vs)
| RN_set es vs : Forall2 (rel al) es vs -> rel_node al (NSet es) (HSet vs)
| RN_dict kvs kvs' : Forall2 (rel_pair al) kvs kvs' -> rel_node al (NDict kvs) (HDict kvs').

(* flat symbolic stack with marks  <->  current stack + metastack *)
Inductive rel_stack (al : env) : list item -> list val -> list (list val) -> Prop :=
| RS_nil : rel_stack al [] [] []
| RS_val e v st cur meta :
    rel al e v -> rel_stack al st cur meta -> rel_stack al (IE e :: st) (v :: cur) meta
| RS_mark st prev meta :
    rel_stack al st prev meta -> rel_stack al (IMark :: st) [] (prev :: meta).

Definition rel_memo (al : env) (a : Z * expr) (b : Z * val) : Prop :=
  fst a = fst b /\ rel al (snd a) (snd b).

Definition rel_opt (al : env) (a : option expr) (b : option val) : Prop :=
  match a, b with
  | None, None => True
  | Some e, Some v => rel al e v
  | _, _ => False
  end.

(* module body (newest first)  <->  VM event log (newest first) *)
Inductive rel_events (al : env) : list stmt -> list event -> Prop :=
| RE_nil : rel_events al [] []
| RE_import m n b l :
    is_builtins m = false -> rel_events al b l ->
    rel_events al (SImport m n :: b) (EvResolve m n :: l)
| RE_builtin m n b l :
    is_builtins m = true -> rel_events al b l -> rel_events al b (EvResolve m n :: l)
| RE_call i f args kw f' args' kw' k b l :
    rel al f f' -> Forall2 (rel al) args args' -> rel_opt al kw kw' ->
    nth_error al i = Some (VObj k) -> rel_events al b l ->
    rel_events al (SAssignV i (ECall f args kw) :: b) (EvCall f' args' kw' k :: l)
| RE_pers i pid pid' k b l :
    rel al pid pid' -> nth_error al i = Some (VObj k) -> rel_events al b l ->
    rel_events al (SAssignV i (ECall (EAttr (EName "UNPICKLER") "persistent_load") [pid] None) :: b)
               (EvPersLoad pid' k :: l)
| RE_setstate i st obj st' b l :
    nth_error al i = Some obj -> rel al st st' -> rel_events al b l ->
    rel_events al (SExpr (ECall (EAttr (EVar i) "__setstate__") [st] None) :: b)
               (EvSetState obj st' :: l)
| RE_alias i e x b l :
    rel al e x -> nth_error al i = Some x -> rel_events al b l ->
    rel_events al (SAssignV i e :: b) l
| RE_setitem i k v obj k' v' b l :
    nth_error al i = Some obj -> rel al k k' -> rel al v v' -> rel_events al b l ->
    rel_events al (SSetItemV i k v :: b) (EvSetItem obj k' v' :: l)
| RE_result e v b l :
    rel al e v -> rel_events al b l -> rel_events al (SResult e :: b) l.

Record R (al : env) (f : fk) (v : vm) : Prop := mkR {
  R_stack : rel_stack al (stack f) (cur v) (meta v);
  R_memo : Forall2 (rel_memo al) (memo f) (vmemo v);
  R_heap : Forall2 (rel_node al) (nodes f) (heap v);
  R_events : rel_events al (body f) (log v);
  R_ctr : ctr f = List.length al;
  R_env : Forall (fun x => callable x = true) al;   (* fickling only ever names stand-ins *)
  R_stop : match vstopped v with
           | None => stopped f = false
           | Some x => stopped f = true /\ exists e b, body f = SResult e :: b /\ rel al e x
           end
}.

Definition ext (al al' : env) : Prop := forall i x, nth_error al i = Some x -> nth_error al' i = Some x.

Lemma ext_refl al : ext al al.
Proof. intros i x H; exact H. Qed.

Lemma ext_app al x : ext al (al ++ [x]).
Proof.
  intros i y H. rewrite nth_error_app1; [exact H|]. apply nth_error_Some. congruence.
Qed.

Lemma ext_trans a b c : ext a b -> ext b c -> ext a c.
Proof. intros X Y i x H. apply Y, X, H. Qed.

Lemma rel_mono al al' : ext al al' -> forall e v, rel al e v -> rel al' e v.
Proof.
  intros X. fix IH 3. intros e v H.
  assert (forall es vs, Forall2 (rel al) es vs -> Forall2 (rel al') es vs) as IHs.
  { fix IH2 3. intros es vs F. destruct F as [|a b l l' H1 H2]; constructor;
      [apply IH; exact H1 | apply IH2; exact H2]. }
  destruct H; constructor; auto.
Qed.

Lemma rel_list_mono al al' : ext al al' -> forall es vs, Forall2 (rel al) es vs -> Forall2 (rel al') es vs.
Proof. intros X es vs. apply Forall2_impl. exact (rel_mono al al' X). Qed.

Lemma rel_pairs_mono al al' : ext al al' ->
  forall a b, Forall2 (rel_pair al) a b -> Forall2 (rel_pair al') a b.
Proof. intros X a b. apply Forall2_impl. intros p q [H1 H2]. split; eauto using rel_mono. Qed.

Lemma rel_node_mono al al' : ext al al' -> forall n h, rel_node al n h -> rel_node al' n h.
Proof.
  intros X n h H. destruct H; constructor; eauto using rel_list_mono, rel_pairs_mono.
Qed.

Lemma rel_stack_mono al al' : ext al al' ->
  forall st c m, rel_stack al st c m -> rel_stack al' st c m.
Proof. intros X st c m H. induction H; constructor; eauto using rel_mono. Qed.

Lemma rel_memo_mono al al' : ext al al' ->
  forall a b, Forall2 (rel_memo al) a b -> Forall2 (rel_memo al') a b.
Proof. intros X a b. apply Forall2_impl. intros p q [H1 H2]. split; eauto using rel_mono. Qed.

Lemma rel_heap_mono al al' : ext al al' ->
  forall a b, Forall2 (rel_node al) a b -> Forall2 (rel_node al') a b.
Proof. intros X a b. apply Forall2_impl. exact (rel_node_mono al al' X). Qed.

Lemma rel_opt_mono al al' : ext al al' -> forall a b, rel_opt al a b -> rel_opt al' a b.
Proof. intros X [a|] [b|]; cbn; eauto using rel_mono. Qed.

Lemma rel_events_mono al al' : ext al al' ->
  forall b l, rel_events al b l -> rel_events al' b l.
Proof.
  intros X b l H. induction H.
  - constructor.
  - constructor; auto.
  - apply RE_builtin; auto.
  - eapply RE_call; eauto using rel_mono, rel_list_mono, rel_opt_mono.
  - eapply RE_pers; eauto using rel_mono.
  - eapply RE_setstate; eauto using rel_mono.
  - eapply RE_alias; eauto using rel_mono.
  - eapply RE_setitem; eauto using rel_mono.
  - eapply RE_result; eauto using rel_mono.
Qed.
