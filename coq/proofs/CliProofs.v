(* C18, model/Cli.v.  The injection command writes the stack with one pickle replaced, and the result
   parses again.  Decompile: every interpreter step keeps the emitted statements in scope (inv:
   variables numbered in order from where the previous pickle stopped, each used only after its
   assignment, no reserved name but the interpreter's own), so the segments of a stack neither reuse
   nor capture a name. *)
From Coq Require Import List String ZArith Bool Lia DecimalString.
From Coq.Strings Require Import Byte.
From Verif Require Import Base BaseProofs Ops Interp StepFacts Codec CodecProofs Cli.
Import ListNotations.
Local Open Scope nat_scope.
Local Open Scope list_scope.

Lemma slice_bound_nat : forall n k, k <= n -> slice_bound n (Z.of_nat k) = k.
Proof.
  intros n k L. unfold slice_bound. destruct (Z.of_nat k <? 0)%Z eqn:E; [lia|].
  rewrite Nat2Z.id. lia.
Qed.

Lemma py_index_nat : forall n k, k < n -> py_index n (Z.of_nat k) = Some k.
Proof.
  intros n k L. unfold py_index. destruct (Z.of_nat k <? 0)%Z eqn:E; [lia|].
  destruct (Z.of_nat k <? Z.of_nat n)%Z eqn:F; [|lia]. rewrite Nat2Z.id. reflexivity.
Qed.

Section InjectProofs.
  Variables P B : Type.
  Variable inject : P -> res P.
  Variable dumps : P -> B.
  Variable stop : P -> bool.

  Lemma inject_in_range : forall ps k p, nth_error ps k = Some p ->
    cli_inject inject dumps stop ps (Z.of_nat k)
    = match inject p with
      | Ok p' => mkOut (map dumps (set_nth k p' ps)) (negb (stop p)) (Exit 0)
      | Err e => mkOut (map dumps (firstn k ps)) true (Raised e)
      end.
  Proof.
    intros ps k p N.
    assert (L : k < List.length ps) by (apply nth_error_Some; congruence).
    unfold cli_inject. destruct (Z.of_nat k >=? Z.of_nat (List.length ps))%Z eqn:E; [lia|].
    rewrite (py_index_nat _ _ L), N. unfold py_upto, py_from. rewrite slice_bound_nat by lia.
    destruct (inject p) as [p'|e]; [|reflexivity]. rewrite set_nth_length.
    replace (Z.of_nat k + 1)%Z with (Z.of_nat (S k)) by lia. rewrite slice_bound_nat by lia.
    rewrite (set_nth_split k p' ps L), map_app.
    change (p' :: skipn (S k) ps) with ([p'] ++ skipn (S k) ps) at 1.
    rewrite app_assoc, skipn_app_exact; [reflexivity|].
    rewrite app_length, firstn_length. cbn. lia.
  Qed.
End InjectProofs.

Definition dumps_bytes (p : list opc) : list byte :=
  match Codec.dumps p with Ok b => b | Err _ => [] end.

Lemma forall2_dumps_map : forall parts (items : list (list byte * list opc)),
  Forall2 (fun part bp => Codec.dumps part = Ok (fst bp)) parts items ->
  map dumps_bytes parts = map fst items.
Proof.
  induction 1 as [|x y l l' H F IH]; [reflexivity|]. cbn [map]. unfold dumps_bytes at 1.
  rewrite H, IH. reflexivity.
Qed.

Section Inv.
  Variable pc : string -> bool.   (* the text constants that may occur: pc_of *)
  Variable lo : nat.              (* first_variable_id *)

  Definition atom_ok (c : nat) (a : atom) : Prop :=
    match a with
    | AVar j => lo <= j < c
    | AName s => unres s = true
    | AStr s => pc s = true
    end.
  Definition eok (c : nat) (e : expr) : Prop := Forall (atom_ok c) (expr_atoms e).
  Definition nok (c : nat) (n : node) : Prop := Forall (atom_ok c) (node_atoms n).
  Definition iok (c : nat) (it : item) : Prop := match it with IMark => True | IE e => eok c e end.

  (* c: the variable counter after the statement; pre_ctr: the one before it *)
  Definition stmt_ok (c : nat) (st : stmt) : Prop :=
    match st with
    | SAssignV j e => c = S j /\ eok j e
    | SSetItemV j k e => lo <= j < c /\ eok c k /\ eok c e
    | SExpr e | SResult e => eok c e
    | SImport _ n => unres n = true
    end.
  Definition pre_ctr (c : nat) (st : stmt) : nat := match st with SAssignV j _ => j | _ => c end.

  (* b newest first, c the counter after it *)
  Fixpoint body_wf (b : list stmt) (c : nat) : Prop :=
    match b with
    | [] => c = lo
    | st :: r => stmt_ok c st /\ body_wf r (pre_ctr c st)
    end.

  Record inv (s : fk) : Prop := {
    i_lo : lo <= ctr s;
    i_stack : Forall (iok (ctr s)) (stack s);
    i_memo : Forall (fun kv => eok (ctr s) (snd kv)) (memo s);
    i_nodes : Forall (nok (ctr s)) (nodes s);
    i_body : body_wf (body s) (ctr s)
  }.

  Lemma atoms_mono : forall c c' l, c <= c' -> Forall (atom_ok c) l -> Forall (atom_ok c') l.
  Proof.
    intros c c' l L. apply Forall_impl. intros [j|s|s] H; simpl in *; auto. lia.
  Qed.
  Lemma iok_mono : forall c c' it, c <= c' -> iok c it -> iok c' it.
  Proof. intros c c' [|e] L H; simpl in *; auto. eapply atoms_mono; eauto. Qed.

  Lemma pairs_eok : forall c l, Forall (eok c) l ->
    Forall (fun kv => eok c (fst kv) /\ eok c (snd kv)) (pairs_of l).
  Proof.
    intros c. fix IH 2. intros l F. destruct F as [|a l Ha F]; [constructor|].
    destruct F as [|b l Hb F]; [constructor|]. cbn [pairs_of]. constructor; [split; assumption|apply IH, F].
  Qed.

  Lemma pairs_ok : forall c l, Forall (eok c) l -> nok c (NDict (pairs_of l)).
  Proof.
    intros c l F. apply Forall_flat_map. eapply Forall_impl; [|apply pairs_eok, F].
    intros kv [Hk Hv]. apply Forall_app. split; assumption.
  Qed.

  Lemma call_ok : forall c f args kw, eok c f -> Forall (eok c) args ->
    (forall k, kw = Some k -> eok c k) -> eok c (ECall f args kw).
  Proof.
    intros c f args kw Hf Ha Hk. unfold eok. cbn [expr_atoms]. rewrite !Forall_app.
    split; [exact Hf|]. split; [apply Forall_flat_map, Ha|]. destruct kw as [k|]; [apply Hk; reflexivity|constructor].
  Qed.

  Lemma call_with_ok : forall c f args kw,
    eok c f -> eok c args -> (forall k, kw = Some k -> eok c k) -> eok c (call_with f args kw).
  Proof.
    intros c f args kw Hf Ha Hk. unfold call_with.
    destruct args; try (apply call_ok; [exact Hf| |exact Hk]; constructor; [exact Ha|constructor]).
    apply call_ok; [exact Hf|apply Forall_flat_map, Ha|exact Hk].
  Qed.

  Lemma evar_ok : forall c j, lo <= j < c -> eok c (EVar j).
  Proof. intros c j L. constructor; [exact L|constructor]. Qed.
  Lemma enode_ok : forall c i, eok c (ENode i).
  Proof. intros c i. constructor. Qed.
  Lemma ename_ok : forall c n, unres n = true -> eok c (EName n).
  Proof. intros c n U. constructor; [exact U|constructor]. Qed.

  Lemma pre_ctr_le : forall c st, stmt_ok c st -> pre_ctr c st <= c.
  Proof. intros c [] H; cbn in *; lia. Qed.

  Lemma stmt_atoms_ok : forall c st, stmt_ok c st -> Forall (atom_ok (pre_ctr c st)) (stmt_atoms st).
  Proof.
    intros c [] H; cbn [stmt_ok pre_ctr stmt_atoms] in *; try exact H; [constructor|apply H|].
    destruct H as (Lj & Hk & He). constructor; [exact Lj|apply Forall_app; split; assumption].
  Qed.

  Lemma stmt_assigns_seq : forall c st, stmt_ok c st ->
    stmt_assigns st = seq (pre_ctr c st) (c - pre_ctr c st).
  Proof.
    intros c [] H; cbn [stmt_ok pre_ctr stmt_assigns] in *; rewrite ?Nat.sub_diag; try reflexivity.
    destruct H as [-> _]. replace (S i - i) with 1 by lia. reflexivity.
  Qed.

  Lemma body_wf_app : forall post pre c, body_wf (post ++ pre) c -> exists c', body_wf pre c' /\ c' <= c.
  Proof.
    induction post as [|x post IH]; intros pre c W; [eauto|]. destruct W as [Hx W].
    destruct (IH _ _ W) as (c' & W' & L). exists c'. split; [exact W'|].
    pose proof (pre_ctr_le _ _ Hx). lia.
  Qed.

  Lemma body_assigns : forall b c, body_wf b c ->
    lo <= c /\ flat_map stmt_assigns (List.rev b) = seq lo (c - lo).
  Proof.
    induction b as [|st b IH]; intros c W.
    - cbn in W. subst. rewrite Nat.sub_diag. split; [lia|reflexivity].
    - destruct W as [Hs W]. destruct (IH _ W) as [L E]. pose proof (pre_ctr_le _ _ Hs) as L'.
      split; [lia|]. cbn [List.rev]. rewrite flat_map_app, E. cbn [flat_map].
      rewrite app_nil_r, (stmt_assigns_seq _ _ Hs).
      replace (c - lo) with ((pre_ctr c st - lo) + (c - pre_ctr c st)) by lia. rewrite seq_app.
      repeat f_equal. lia.
  Qed.

  Lemma body_wf_emit : forall new b c,
    Forall (fun st => stmt_ok c st /\ pre_ctr c st = c) new -> body_wf b c -> body_wf (new ++ b) c.
  Proof.
    intros new b c F W. induction F as [|st new [Hs Hp] F IH]; [exact W|].
    split; [exact Hs|rewrite Hp; exact IH].
  Qed.

  Lemma setitem_stmt_ok : forall c k v, lo <= c -> eok c k -> eok c v ->
    stmt_ok (S c) (SSetItemV c k v) /\ pre_ctr (S c) (SSetItemV c k v) = S c.
  Proof.
    intros c k v L Hk Hv. cbn. repeat split; try lia; eapply atoms_mono; try eassumption; lia.
  Qed.

  (* IE c :: IE b :: IE a :: r is map IE [c; b; a] ++ r; a step that pops down to a mark sees the
     items oldest first, hence rev *)
  Lemma popped_ok : forall c top r, Forall (iok c) (map IE top ++ r) ->
    Forall (eok c) (List.rev top) /\ Forall (iok c) r.
  Proof.
    intros c top r F. apply Forall_app in F. destruct F as [Ft Fr].
    split; [apply Forall_rev, (proj1 (Forall_map IE _ _) Ft)|exact Fr].
  Qed.

  Lemma slice_ok : forall c top r, Forall (iok c) (map IE top ++ IMark :: r) ->
    Forall (eok c) (List.rev top) /\ Forall (iok c) r.
  Proof.
    intros c top r F. destruct (popped_ok _ _ _ F) as [Ft Fr]. split; [exact Ft|inversion Fr; assumption].
  Qed.

  Lemma inv_with_stack : forall s st, inv s -> Forall (iok (ctr s)) st -> inv (with_stack s st).
  Proof. intros s st [A B C D E] F. constructor; assumption. Qed.

  Lemma inv_push : forall s e, inv s -> eok (ctr s) e -> inv (push e s).
  Proof.
    intros s e I H. apply inv_with_stack; [assumption|]. constructor; [exact H|apply (i_stack _ I)].
  Qed.

  Lemma inv_alloc : forall s n, inv s -> nok (ctr s) n ->
    inv (push (ENode (List.length (nodes s))) (snd (alloc n s))).
  Proof.
    intros s n [A B C D E] N. constructor; cbn [alloc snd push with_stack ctr stack memo nodes body];
      try assumption.
    - constructor; [apply enode_ok|exact B].
    - apply Forall_app. split; [exact D|constructor; [exact N|constructor]].
  Qed.

  Lemma inv_node_grow : forall s i n n', inv s -> nth_error (nodes s) i = Some n ->
    (nok (ctr s) n -> nok (ctr s) n') -> inv (set_node i n' s).
  Proof.
    intros s i n n' [A B C D E] G N. constructor; cbn [set_node ctr stack memo nodes body]; try assumption.
    apply Forall_set_nth; [exact D|]. exact (N (Forall_nth_error _ _ _ _ D G)).
  Qed.

  Lemma grow_flat : forall c l items, Forall (eok c) items ->
    Forall (atom_ok c) (flat_map expr_atoms l) -> Forall (atom_ok c) (flat_map expr_atoms (l ++ items)).
  Proof. intros c l items F N. rewrite flat_map_app. apply Forall_app. split; [exact N|apply Forall_flat_map, F]. Qed.

  Lemma grow_dict : forall c kvs l, Forall (eok c) l ->
    nok c (NDict kvs) -> nok c (NDict (kvs ++ pairs_of l)).
  Proof.
    intros c kvs l F N. unfold nok. cbn [node_atoms]. rewrite flat_map_app. apply Forall_app.
    split; [exact N|apply pairs_ok, F].
  Qed.

  Lemma inv_emit_import : forall s m n, inv s -> unres n = true -> inv (emit_import m n s).
  Proof.
    intros s m n I U. unfold emit_import. destruct (is_builtins m); [exact I|].
    destruct I as [A B C D E]. constructor; cbn [emit ctr stack memo nodes body]; try assumption.
    split; [exact U|exact E].
  Qed.

  (* new: the statements of the fallback of SETITEM / SETITEMS / BUILD; [] for every call *)
  Lemma inv_fresh_var : forall s d new, inv s -> eok (ctr s) d ->
    Forall (fun st => stmt_ok (S (ctr s)) st /\ pre_ctr (S (ctr s)) st = S (ctr s)) new ->
    inv (mkFk (IE (EVar (ctr s)) :: stack s) (memo s) (nodes s) (new ++ SAssignV (ctr s) d :: body s)
              (S (ctr s)) (stopped s)).
  Proof.
    intros s d new [A B C D E] Hd N. constructor; cbn [ctr stack memo nodes body].
    - lia.
    - constructor; [apply evar_ok; lia|]. eapply Forall_impl; [|exact B]. intros it. apply iok_mono. lia.
    - eapply Forall_impl; [|exact C]. intros kv. apply atoms_mono. lia.
    - eapply Forall_impl; [|exact D]. intros n. apply atoms_mono. lia.
    - apply body_wf_emit; [exact N|]. cbn. auto.
  Qed.

  Lemma inv_bind_call : forall s call, inv s -> eok (ctr s) call -> inv (bind_call call s).
  Proof. intros s call I H. exact (inv_fresh_var s call [] I H (Forall_nil _)). Qed.

  Lemma inv_call : forall s r f args kw, inv s -> Forall (iok (ctr s)) (IE args :: IE f :: r) ->
    (forall k, kw = Some k -> eok (ctr s) k) -> inv (bind_call (call_with f args kw) (with_stack s r)).
  Proof.
    intros s r f args kw I F Hk. destruct (popped_ok _ [args; f] _ F) as [Ft Fr].
    inversion Ft as [|? ? Hf Ft']; subst. inversion Ft' as [|? ? Ha _]; subst.
    apply inv_bind_call; [exact (inv_with_stack _ _ I Fr)|]. apply call_with_ok; assumption.
  Qed.

  Lemma inv_memo_put : forall s k e, inv s -> eok (ctr s) e ->
    inv (mkFk (stack s) (memo_put k e (memo s)) (nodes s) (body s) (ctr s) (stopped s)).
  Proof.
    intros s k e [A B C D E] H. constructor; cbn [ctr stack memo nodes body]; try assumption.
    unfold memo_put. constructor; [exact H|apply memo_remove_forall; assumption].
  Qed.

  (* what the hypothesis of C18 says of one opcode *)
  Definition op_ok (o : op) : Prop :=
    op_globals_free o = true /\
    (forall x, o = OConst (CStr x) -> pc x = true) /\
    (o = OStackGlobal -> forall x, pc x = true -> unres x = true).

  (* in each case F: the stack the step found was in scope; E: what that stack was *)
  Lemma step_inv : forall o s s1, inv s -> op_ok o -> step o s = Ok s1 -> inv s1.
  Proof.
    intros o s s1 I (G & HC & HS) H. pose proof (i_stack _ I) as F.
    destruct (step_sound _ _ _ H) as [c s|s|e r s E|i r s E|top r s E|e r s E|s|s|s|s
      |v i r l s E N|top i r l s E N|top r s E|top r s E|a r s E|a b r s E|a b c r s E|top r s E Ev
      |v k d i kvs r s E D|v k d r s E D|top d i kvs r s E D|top d r s E D|top i r l s E N|top r s E
      |m n s P|ms ns r s E P|m n top r s E P|top k args r s E Ek|args c r s E|kw args c r s E
      |args f r s E|st obj r s E|pid r s E|k e r s E|k e s M|e r s E|s];
      try rewrite E in F.
    - apply inv_push; [exact I|]. destruct c; try constructor; [apply HC; reflexivity|constructor].
    - apply inv_with_stack; [exact I|]. constructor; [exact Logic.I|exact F].
    - inversion F; subst. destruct I. constructor; cbn [ctr stack memo nodes body]; try assumption.
      split; assumption.
    - apply inv_with_stack; [exact I|exact (Forall_inv_tail F)].
    - apply inv_with_stack; [exact I|apply (slice_ok _ _ _ F)].
    - apply inv_push; [exact I|exact (Forall_inv F)].
    - apply inv_alloc; [exact I|constructor].
    - apply inv_alloc; [exact I|constructor].
    - apply inv_alloc; [exact I|constructor].
    - apply inv_push; [exact I|constructor].
    - destruct (popped_ok _ [v] _ F) as [Ft Fr].
      apply (inv_node_grow _ _ _ _ (inv_with_stack _ _ I Fr) N), grow_flat, Ft.
    - destruct (slice_ok _ _ _ F) as [Ft Fr].
      apply (inv_node_grow _ _ _ _ (inv_with_stack _ _ I Fr) N), grow_flat, Ft.
    - destruct (slice_ok _ _ _ F) as [Ft Fr]. apply (inv_alloc _ _ (inv_with_stack _ _ I Fr)), Forall_flat_map, Ft.
    - destruct (slice_ok _ _ _ F) as [Ft Fr]. apply (inv_push _ _ (inv_with_stack _ _ I Fr)), Forall_flat_map, Ft.
    - destruct (popped_ok _ [a] _ F) as [Ft Fr]. apply (inv_push _ _ (inv_with_stack _ _ I Fr)), Forall_flat_map, Ft.
    - destruct (popped_ok _ [b; a] _ F) as [Ft Fr]. apply (inv_push _ _ (inv_with_stack _ _ I Fr)), Forall_flat_map, Ft.
    - destruct (popped_ok _ [c; b; a] _ F) as [Ft Fr]. apply (inv_push _ _ (inv_with_stack _ _ I Fr)), Forall_flat_map, Ft.
    - destruct (slice_ok _ _ _ F) as [Ft Fr]. apply (inv_alloc _ _ (inv_with_stack _ _ I Fr)), pairs_ok, Ft.
    - destruct (popped_ok _ [v; k; d] _ F) as [Ft Fr]. apply dict_at_Some in D. destruct D as [-> N].
      apply inv_push; [|apply enode_ok].
      apply (inv_node_grow _ _ _ _ (inv_with_stack _ _ I Fr) N), (grow_dict _ kvs [k; v]).
      exact (Forall_inv_tail Ft).
    - destruct (popped_ok _ [v; k; d] _ F) as [Ft Fr]. inversion Ft as [|? ? Hd Ft']; subst.
      inversion Ft' as [|? ? Hk Ft'']; subst.
      apply (inv_fresh_var (with_stack s r) d [SSetItemV (ctr s) k v] (inv_with_stack _ _ I Fr) Hd).
      constructor; [|constructor]. apply setitem_stmt_ok; [exact (i_lo _ I)|exact Hk|exact (Forall_inv Ft'')].
    - destruct (slice_ok _ _ _ F) as [Ft Fr]. apply dict_at_Some in D. destruct D as [-> N].
      apply inv_push; [|apply enode_ok].
      apply (inv_node_grow _ _ _ _ (inv_with_stack _ _ I (Forall_inv_tail Fr)) N), grow_dict, Ft.
    - destruct (slice_ok _ _ _ F) as [Ft Fr].
      apply (inv_fresh_var (with_stack s r) d _ (inv_with_stack _ _ I (Forall_inv_tail Fr)) (Forall_inv Fr)).
      apply Forall_rev, Forall_map. eapply Forall_impl; [|apply pairs_eok, Ft].
      intros kv [Hk Hv]. apply setitem_stmt_ok; [exact (i_lo _ I)|exact Hk|exact Hv].
    - destruct (slice_ok _ _ _ F) as [Ft Fr].
      apply (inv_node_grow _ _ _ _ (inv_with_stack _ _ I Fr) N), grow_flat, Ft.
    - destruct (slice_ok _ _ _ F) as [Ft Fr]. apply (inv_push _ _ (inv_with_stack _ _ I Fr)).
      apply call_ok; [apply ename_ok; reflexivity| |discriminate]. constructor; [|constructor].
      apply Forall_flat_map, Ft.
    - apply inv_push; [apply inv_emit_import; [exact I|exact G]|apply ename_ok, G].
    - destruct (popped_ok _ [EConst (CStr ns); EConst (CStr ms)] _ F) as [Ft Fr].
      assert (U : unres ns = true).
      { apply (HS eq_refl). inversion Ft as [|? ? _ Ft']. exact (Forall_inv (Forall_inv Ft')). }
      apply inv_push; [apply inv_emit_import; [exact (inv_with_stack _ _ I Fr)|exact U]|apply ename_ok, U].
    - destruct (slice_ok _ _ _ F) as [Ft Fr].
      apply inv_bind_call; [apply inv_emit_import; [exact (inv_with_stack _ _ I Fr)|exact G]|].
      rewrite emit_import_state. apply call_ok; [apply ename_ok, G|exact Ft|discriminate].
    - destruct (slice_ok _ _ _ F) as [Ft Fr]. rewrite Ek in Ft.
      apply (inv_bind_call _ _ (inv_with_stack _ _ I Fr)).
      apply call_ok; [exact (Forall_inv Ft)|exact (Forall_inv_tail Ft)|discriminate].
    - apply inv_call; [exact I|exact F|discriminate].
    - apply inv_call; [exact I|exact (Forall_inv_tail F)|]. intros k' [= <-]. exact (Forall_inv F).
    - apply inv_call; [exact I|exact F|discriminate].
    - destruct (popped_ok _ [st; obj] _ F) as [Ft Fr]. inversion Ft as [|? ? Ho Ft']; subst.
      apply (inv_fresh_var (with_stack s r) obj
               [SExpr (ECall (EAttr (EVar (ctr s)) "__setstate__") [st] None)]
               (inv_with_stack _ _ I Fr) Ho).
      constructor; [|constructor]. split; [|reflexivity]. pose proof (i_lo _ I).
      apply call_ok; [apply evar_ok; cbn; lia| |discriminate].
      eapply Forall_impl; [|exact Ft']. intros x. apply atoms_mono. cbn. lia.
    - destruct (popped_ok _ [pid] _ F) as [Ft Fr]. apply (inv_bind_call _ _ (inv_with_stack _ _ I Fr)).
      apply call_ok; [apply ename_ok; reflexivity|exact Ft|discriminate].
    - exact (inv_memo_put _ _ _ I (Forall_inv F)).
    - apply inv_push; [exact I|exact (memo_get_forall _ _ _ _ M (i_memo _ I))].
    - exact (inv_memo_put _ _ _ I (Forall_inv F)).
    - exact I.
  Qed.

  Lemma run_from_inv : forall p s s1, inv s -> Forall op_ok p -> run_from p s = Ok s1 -> inv s1.
  Proof.
    intros p s s1 I F H. apply (run_ind inv p s s1); [|exact H|exact I].
    intros o a b Io _ S Ia. exact (step_inv _ _ _ Ia (proj1 (Forall_forall _ _) F o Io) S).
  Qed.
End Inv.

Lemma nat_to_string_inj : forall a b, nat_to_string a = nat_to_string b -> a = b.
Proof.
  intros a b E. apply (f_equal z_of_string) in E. unfold nat_to_string in E.
  rewrite !z_of_to_string in E. injection E. apply Nat2Z.inj.
Qed.

Lemma uint_digits : forall d, all_digits (NilEmpty.string_of_uint d) = true.
Proof. induction d; cbn [NilEmpty.string_of_uint all_digits]; try reflexivity; exact IHd. Qed.

Lemma nat_string_digits : forall n, all_digits (nat_to_string n) = true.
Proof.
  intros n. unfold nat_to_string, z_to_string.
  destruct (Z.of_nat n) as [|p|p] eqn:Z; try lia; cbn [Z.to_int NilZero.string_of_int].
  - reflexivity.
  - unfold NilZero.string_of_uint. destruct (Pos.to_uint p); try reflexivity; apply uint_digits.
Qed.

Lemma var_name_reserved : forall j, is_reserved (var_name j) = true.
Proof. intros j. unfold is_reserved, var_name. cbn. apply nat_string_digits. Qed.
Lemma result_name_reserved : forall i, is_reserved (result_name i) = true.
Proof. intros i. unfold is_reserved, result_name. cbn. apply nat_string_digits. Qed.
Lemma var_name_inj : forall a b, var_name a = var_name b -> a = b.
Proof. intros a b E. unfold var_name in E. cbn in E. inversion E. apply nat_to_string_inj. assumption. Qed.
Lemma result_name_inj : forall a b, result_name a = result_name b -> a = b.
Proof. intros a b E. unfold result_name in E. cbn in E. inversion E. apply nat_to_string_inj. assumption. Qed.
Lemma var_not_result : forall a b, var_name a <> result_name b.
Proof. intros a b E. unfold var_name, result_name in E. cbn in E. discriminate. Qed.

Definition pc_of (p : list op) : string -> bool :=
  if existsb is_stack_global p then unres else fun _ => true.

Lemma reserved_free_ops : forall p, reserved_free p = true -> Forall (op_ok (pc_of p)) p.
Proof.
  intros p R. unfold reserved_free in R. apply andb_true_iff in R. destruct R as [G C].
  apply Forall_forall. intros o Io. split; [exact (proj1 (forallb_forall _ _) G o Io)|].
  unfold pc_of. destruct (existsb is_stack_global p) eqn:X.
  - cbn [negb orb] in C. split; [|auto]. intros x E. subst.
    exact (proj1 (forallb_forall _ _) C _ Io).
  - split; [reflexivity|]. intros E. subst.
    assert (existsb is_stack_global p = true) by (apply existsb_exists; exists OStackGlobal; auto).
    congruence.
Qed.

Lemma run_scoped : forall p lo s, reserved_free p = true -> run_from p (fk_init lo) = Ok s ->
  inv (pc_of p) lo s.
Proof.
  intros p lo s R H. eapply run_from_inv; [|apply reserved_free_ops; exact R|exact H].
  constructor; cbn; auto.
Qed.

Fixpoint seg_chain (i v : nat) (l : list seg) : Prop :=
  match l with
  | [] => True
  | g :: r => sg_index g = i /\ sg_first g = v /\ seg_chain (S i) (sg_next g) r
  end.
Definition seg_inv (g : seg) : Prop := exists pc, inv pc (sg_first g) (sg_state g).

Lemma decompile_from_spec : forall ps i v segs st,
  cli_decompile_from i v ps = (segs, st) ->
  seg_chain i v segs /\
  (st = Exit 0 /\ List.length segs = List.length ps /\
     Forall2 (fun g p => run_from p (fk_init (sg_first g)) = Ok (sg_state g)) segs ps
   \/ exists e, st = Raised e /\ List.length segs < List.length ps /\
        Forall2 (fun g p => run_from p (fk_init (sg_first g)) = Ok (sg_state g))
                segs (firstn (List.length segs) ps)).
Proof.
  induction ps as [|p ps IH]; intros i v segs st H; cbn [cli_decompile_from] in H.
  - inversion H; subst. cbn. split; [exact Logic.I|]. left. auto.
  - destruct (run_from p (fk_init v)) as [s|e] eqn:Rn.
    + destruct (cli_decompile_from (S i) (ctr s) ps) as [l st'] eqn:D. inversion H; subst.
      destruct (IH _ _ _ _ D) as (Ch & Alt). split; [cbn; auto|].
      destruct Alt as [(E1 & E2 & E3)|(e & E1 & E2 & E3)]; [left|right; exists e]; cbn [List.length];
        (split; [assumption|]); (split; [lia|]); cbn [firstn]; constructor; assumption.
    + inversion H; subst. cbn. split; [exact Logic.I|].
      right. exists e. split; [reflexivity|]. split; [lia|constructor].
Qed.

Lemma decompile_from_each : forall ps i v segs st, cli_decompile_from i v ps = (segs, st) ->
  forall g, In g segs -> exists p, In p ps /\ run_from p (fk_init (sg_first g)) = Ok (sg_state g).
Proof.
  intros ps i v segs st H g Ig. destruct (decompile_from_spec _ _ _ _ _ H) as (_ & Alt).
  apply In_nth_error in Ig. destruct Ig as [n Ig].
  destruct Alt as [(_ & _ & F)|(e & _ & _ & F)];
    destruct (Forall2_lookup _ _ _ _ _ F Ig) as (p & Np & Rp); exists p; (split; [|exact Rp]);
    apply nth_error_In in Np; [exact Np|].
  rewrite <- (firstn_skipn (List.length segs) ps). apply in_or_app. left. exact Np.
Qed.

Lemma run_from_result : forall p s s1, run_from p s = Ok s1 ->
  (stopped s = true -> exists e r, body s = SResult e :: r) ->
  stopped s1 = true -> exists e r, body s1 = SResult e :: r.
Proof.
  intros p s s1. apply (run_ind (fun a => stopped a = true -> exists e r, body a = SResult e :: r)).
  intros o a b _ Na S _ Tb. destruct (step_halts _ _ _ S) as [(_ & _ & e & E)|[_ E]]; [eauto|congruence].
Qed.

Lemma run_ends_stopped : forall p s s1, run_from (p ++ [OStop]) s = Ok s1 -> stopped s1 = true.
Proof.
  intros p s s1 H. rewrite run_app in H. apply bind_ok in H. destruct H as (s2 & _ & H).
  cbn [run_from] in H. destruct (stopped s2) eqn:St; [inversion H; subst; exact St|].
  apply bind_ok in H. destruct H as (s3 & S & [= <-]).
  destruct (step_halts _ _ _ S) as [(_ & T & _)|[N _]]; [exact T|contradiction].
Qed.

Lemma vars_of_in : forall l j, In j (vars_of l) <-> In (AVar j) l.
Proof.
  intros l j. unfold vars_of. rewrite in_flat_map. split.
  - intros (a & Ia & Ij). destruct a; cbn in Ij; try tauto. destruct Ij as [E|[]]. subst. exact Ia.
  - intros I. exists (AVar j). split; [exact I|left; reflexivity].
Qed.

Lemma seg_assigns_seq : forall g, seg_inv g ->
  sg_first g <= sg_next g /\ seg_assigns g = seq (sg_first g) (sg_next g - sg_first g).
Proof.
  intros g (pc & I). unfold seg_assigns, seg_body, sg_next. apply (body_assigns pc). apply (i_body _ _ _ I).
Qed.

Lemma seg_stmt : forall pc g pre st post, inv pc (sg_first g) (sg_state g) ->
  seg_body g = pre ++ st :: post ->
  exists c', stmt_ok pc (sg_first g) c' st /\ c' <= sg_next g /\
             body_wf pc (sg_first g) (List.rev pre) (pre_ctr c' st).
Proof.
  intros pc g pre st post I E. unfold seg_body in E.
  assert (Eb : body (sg_state g) = List.rev post ++ st :: List.rev pre).
  { rewrite <- (rev_involutive (body (sg_state g))), E, rev_app_distr. cbn [List.rev].
    rewrite <- app_assoc. reflexivity. }
  pose proof (i_body _ _ _ I) as W. rewrite Eb in W.
  destruct (body_wf_app _ _ _ _ _ W) as (c' & [Hs Wp] & L). exists c'. auto.
Qed.

Lemma seg_atoms_ok : forall g, seg_inv g -> exists pc,
  Forall (atom_ok pc (sg_first g) (sg_next g)) (flat_map stmt_atoms (seg_body g) ++ heap_atoms (sg_state g)).
Proof.
  intros g (pc & I). exists pc. apply Forall_app. split.
  - apply Forall_flat_map, Forall_forall. intros st Is. apply in_split in Is. destruct Is as (pre & post & E).
    destruct (seg_stmt _ _ _ _ _ I E) as (c' & Hs & L & _).
    eapply atoms_mono; [|apply stmt_atoms_ok, Hs]. pose proof (pre_ctr_le _ _ _ _ Hs). lia.
  - apply Forall_flat_map, (i_nodes _ _ _ I).
Qed.

Lemma seg_reads_reserved : forall g x, seg_inv g -> In x (seg_reads g) -> is_reserved x = true ->
  exists j, x = var_name j /\ sg_first g <= j < sg_next g.
Proof.
  intros g x Hg Ix R. destruct (seg_atoms_ok g Hg) as (pc & H). unfold seg_reads in Ix.
  apply in_flat_map in Ix. destruct Ix as (a & Ia & Ix). apply (proj1 (Forall_forall _ _) H) in Ia.
  destruct a; cbn [atom_name atom_ok In] in Ix, Ia; try tauto; destruct Ix as [E|[]]; subst.
  - exists j. split; [reflexivity|exact Ia].
  - unfold unres in Ia. rewrite R in Ia. discriminate.
Qed.

Lemma seg_binds_reserved : forall g x, seg_inv g -> In x (seg_binds g) -> is_reserved x = true ->
  (exists j, x = var_name j /\ sg_first g <= j < sg_next g) \/ x = result_name (sg_index g).
Proof.
  intros g x Hg Ix R. unfold seg_binds in Ix. apply in_flat_map in Ix. destruct Ix as (st & Is & Ix).
  destruct st; cbn [stmt_binds In] in Ix; try tauto; destruct Ix as [E|[]]; subst.
  - exfalso. destruct Hg as (pc & I). apply in_split in Is. destruct Is as (pre & post & E).
    destruct (seg_stmt _ _ _ _ _ I E) as (c' & U & _). cbn in U. unfold unres in U. rewrite R in U.
    discriminate.
  - left. exists i. split; [reflexivity|]. destruct (seg_assigns_seq g Hg) as [L A].
    assert (Ii : In i (seg_assigns g)).
    { unfold seg_assigns. apply in_flat_map. exists (SAssignV i e). split; [exact Is|left; reflexivity]. }
    rewrite A in Ii. apply in_seq in Ii. lia.
  - right. reflexivity.
Qed.

Lemma seg_names_reserved : forall g x, seg_inv g -> In x (seg_binds g ++ seg_reads g) ->
  is_reserved x = true ->
  (exists j, x = var_name j /\ sg_first g <= j < sg_next g) \/ x = result_name (sg_index g).
Proof.
  intros g x Hg Ix R. apply in_app_or in Ix. destruct Ix as [Ix|Ix];
    [apply seg_binds_reserved; assumption|left; apply seg_reads_reserved; assumption].
Qed.

Lemma chain_from : forall l i v, seg_chain i v l -> Forall seg_inv l ->
  Forall (fun g => v <= sg_first g /\ i <= sg_index g) l.
Proof.
  induction l as [|g r IH]; intros i v C F; [constructor|]. destruct C as (Ei & Ev & C).
  inversion F as [|? ? Fg Fr]; subst. constructor; [lia|].
  destruct (seg_assigns_seq g Fg) as [L _].
  eapply Forall_impl; [|exact (IH _ _ C Fr)]. intros h [A B]. lia.
Qed.

Lemma chain_app : forall l1 l i v, seg_chain i v (l1 ++ l) -> exists i' v', seg_chain i' v' l.
Proof.
  induction l1 as [|x l1 IH]; intros l i v C; [eauto|]. cbn [app seg_chain] in C.
  destruct C as (_ & _ & C). eauto.
Qed.

Lemma segs_ordered : forall segs i v l1 g1 l2 g2 l3,
  seg_chain i v segs -> Forall seg_inv segs -> segs = l1 ++ g1 :: l2 ++ g2 :: l3 ->
  sg_next g1 <= sg_first g2 /\ sg_index g1 < sg_index g2.
Proof.
  intros segs i v l1 g1 l2 g2 l3 C F E. subst segs.
  destruct (chain_app _ _ _ _ C) as (i' & v' & Ei & Ev & C'). apply Forall_app in F. destruct F as [_ F].
  destruct (Forall_elt _ _ _ (chain_from _ _ _ C' (Forall_inv_tail F))) as [A B]. lia.
Qed.

Lemma segs_no_reuse : forall segs i v l1 g1 l2 g2 l3,
  seg_chain i v segs -> Forall seg_inv segs -> segs = l1 ++ g1 :: l2 ++ g2 :: l3 ->
  forall x, In x (seg_binds g1 ++ seg_reads g1) -> In x (seg_binds g2 ++ seg_reads g2) ->
            is_reserved x = false.
Proof.
  intros segs i v l1 g1 l2 g2 l3 C F E x I1 I2.
  destruct (segs_ordered _ _ _ _ _ _ _ _ C F E) as [Lv Li].
  subst segs. pose proof (Forall_elt _ _ _ F) as F1.
  rewrite app_comm_cons, app_assoc in F. pose proof (Forall_elt _ _ _ F) as F2.
  destruct (is_reserved x) eqn:R; [exfalso|reflexivity].
  pose proof (seg_names_reserved _ _ F1 I1 R) as A1. pose proof (seg_names_reserved _ _ F2 I2 R) as A2.
  destruct A1 as [(j1 & E1 & L1)|E1]; destruct A2 as [(j2 & E2 & L2)|E2]; subst x.
  - apply var_name_inj in E2. lia.
  - exact (var_not_result _ _ E2).
  - exact (var_not_result _ _ (eq_sym E2)).
  - apply result_name_inj in E2. lia.
Qed.

Definition seg_scoped (g : seg) : Prop :=
  sg_first g <= sg_next g /\
  seg_assigns g = seq (sg_first g) (sg_next g - sg_first g) /\
  (forall pre st post, seg_body g = pre ++ st :: post ->
     forall j, In j (vars_of (stmt_atoms st)) -> In j (flat_map stmt_assigns pre)) /\
  (forall j, In j (vars_of (flat_map stmt_atoms (seg_body g) ++ heap_atoms (sg_state g))) ->
     sg_first g <= j < sg_next g) /\
  (forall x, In x (seg_binds g) -> is_reserved x = true ->
     (exists j, x = var_name j /\ sg_first g <= j < sg_next g) \/ x = result_name (sg_index g)) /\
  (forall x, In x (seg_reads g) -> is_reserved x = true ->
     exists j, x = var_name j /\ sg_first g <= j < sg_next g).

Lemma seg_inv_scoped : forall g, seg_inv g -> seg_scoped g.
Proof.
  intros g H. destruct (seg_assigns_seq g H) as [A B]. unfold seg_scoped.
  split; [exact A|]. split; [exact B|].
  split; [|split; [|split]].
  - (* what precedes st is a well-formed body, which assigns every variable below its counter *)
    intros pre st post E j Ij. destruct H as (pc & I). destruct (seg_stmt _ _ _ _ _ I E) as (c' & Hs & _ & Wp).
    destruct (body_assigns _ _ _ _ Wp) as [L Ap]. rewrite rev_involutive in Ap. rewrite Ap.
    apply vars_of_in in Ij. pose proof (proj1 (Forall_forall _ _) (stmt_atoms_ok _ _ _ _ Hs) _ Ij) as Hj.
    cbn in Hj. apply in_seq. lia.
  - intros j Ij. destruct (seg_atoms_ok g H) as (pc & Hp). apply vars_of_in in Ij.
    exact (proj1 (Forall_forall _ _) Hp _ Ij).
  - intros x. apply seg_binds_reserved. exact H.
  - intros x. apply seg_reads_reserved. exact H.
Qed.
