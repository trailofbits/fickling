(* C12, the hook lifecycle of model/Hooks.v.  The invariant of all histories, [agrees], holds the bindings,
   current and saved, against the mechanisms the ghost state says are in force; from it come what a probe
   does and that pickle.load is a protection while a mechanism is on.  The stack discipline of contexts
   makes a leave give back the state of the matching enter, and keeps pickle.load protected while a
   context is open in histories that remove only outside contexts. *)
From Coq Require Import List Bool Arith Lia.
From Verif Require Import BaseProofs Allowlist Hooks.
From Verif Require MLNestProofs.
Import ListNotations.
Local Open Scope list_scope.
Local Open Scope nat_scope.

(* MLNest.take_permitted and MLNest.first_refused (C07) repeated for the statements of C12; convertible,
   so the lemmas of MLNestProofs apply as they stand *)
Fixpoint take_ok (a : list gname) (gs : list gname) : list gname :=
  match gs with
  | [] => []
  | g :: r => if spec_permits a g then g :: take_ok a r else []
  end.

Fixpoint first_bad (a : list gname) (gs : list gname) : option gname :=
  match gs with
  | [] => None
  | g :: r => if spec_permits a g then first_bad a r else Some g
  end.

Definition ml_result (a : list gname) (gs : list gname) : result :=
  match first_bad a gs with None => Returned | Some g => UnsafeML g end.

Lemma ml_resolve_spec a gs : ml_resolve a gs = (ml_result a gs, take_ok a gs).
Proof.
  unfold ml_result. induction gs as [|g r IH]; simpl; [reflexivity|].
  destruct (spec_permits a g) eqn:E; [|reflexivity].
  rewrite IH. reflexivity.
Qed.

Lemma ml_resolve_no_recursion a gs : fst (ml_resolve a gs) <> RecursionErr.
Proof. rewrite ml_resolve_spec. unfold ml_result. simpl. destruct (first_bad a gs); discriminate. Qed.

(* one entry per open context; the saved bindings and the ghost's saved mechanisms both move this way,
   hence in lockstep *)
Definition stk {A} (top : A) (o : hop) (l : list A) : list A :=
  match o with
  | HEnter => top :: l
  | HLeave | HLeaveExc => tl l
  | _ => l
  end.

Lemma ctxs_hstep s o : ctxs (hstep s o) = stk (snapshot s) o (ctxs s).
Proof. destruct o; cbn; try reflexivity; (destruct (ctxs s) eqn:E; [exact E|reflexivity]). Qed.

Lemma g_stack_gstep g o : g_stack (gstep g o) = stk (gsnap g) o (g_stack g).
Proof. destruct o; cbn; try reflexivity; (destruct (g_stack g) eqn:E; [exact E|reflexivity]). Qed.

Lemma stk_Forall2 {A B} (R : A -> B -> Prop) a b o l l' :
  R a b -> Forall2 R l l' -> Forall2 R (stk a o l) (stk b o l').
Proof. intros H F. destruct o; cbn; auto; destruct F; cbn; auto. Qed.

Definition ml_binding (m : option (list gname)) : binding :=
  match m with Some a => ML a | None => Orig end.

(* bindings (current, or saved by an open context) against the mechanisms on (now, or at that context's
   entry) *)
Definition bindings_agree (v : saved) (p : gpair) : Prop :=
  s_pls v = ml_binding (snd p) /\ s_cl v = ml_binding (snd p) /\
  s_cls v = ml_binding (snd p) /\ s_pu v = ml_binding (snd p) /\
  (s_pl v = Checked \/ s_pl v = ml_binding (snd p)) /\
  (fst p = true -> s_pl v <> Orig).

Definition agrees (s : hstate) (g : ghost) : Prop :=
  bindings_agree (snapshot s) (gsnap g) /\ Forall2 bindings_agree (ctxs s) (g_stack g).

Lemma agrees_step s g o : agrees s g -> agrees (hstep s o) (gstep g o).
Proof.
  intros (Hc & Hs). split; [|rewrite ctxs_hstep, g_stack_gstep; apply stk_Forall2; assumption].
  destruct o; cbn [hstep gstep]; try exact Hc.
  (* leaving: what the innermost context saved agreed with the mechanisms saved beside it *)
  5, 6: destruct Hs as [|[] [] ? ? Hv _]; [exact Hc|exact Hv].
  all: destruct Hc as (A & B & C & D & E & F); unfold bindings_agree, snapshot, gsnap in *; cbn in *;
    repeat split; auto; discriminate.
Qed.

Lemma agrees_run h : forall s g, agrees s g -> agrees (hrun s h) (grun g h).
Proof.
  induction h as [|o r IH]; intros s g H; simpl; [exact H|].
  apply IH. apply agrees_step. exact H.
Qed.

Lemma agrees_reachable h : agrees (hrun h_init h) (grun g_init h).
Proof.
  apply agrees_run. split; [|constructor]. unfold bindings_agree; cbn. repeat split; auto. discriminate.
Qed.

Lemma others_reachable h :
  let s := hrun h_init h in
  let g := grun g_init h in
  pls s = ml_binding (g_ml g) /\ cl s = ml_binding (g_ml g) /\ cls s = ml_binding (g_ml g) /\
  pu s = ml_binding (g_ml g).
Proof.
  intros s g. destruct (agrees_reachable h) as ((A & B & C & D & _) & _). repeat split; assumption.
Qed.

Lemma pls_never_checked h : pls (hrun h_init h) <> Checked.
Proof. destruct (others_reachable h) as (A & _). rewrite A. destruct (g_ml _); discriminate. Qed.

Definition mech_on (g : ghost) : Prop := g_armed g = true \/ g_ml g <> None.

Lemma switched_on_protected h :
  let s := hrun h_init h in
  let g := grun g_init h in
  (pl s = Checked \/ pl s = ml_binding (g_ml g)) /\
  (mech_on g -> pl s <> Orig) /\
  List.length (ctxs s) = g_depth g.
Proof.
  intros s g. destruct (agrees_reachable h) as ((_ & _ & _ & _ & E & F) & Hs).
  fold s in E, F, Hs. fold g in E, F, Hs. cbn in E, F.
  split; [exact E|]. split; [|exact (Forall2_length _ _ _ Hs)].
  intros [Ha|Hm]; [apply F; exact Ha|].
  destruct E as [E|E]; rewrite E; [discriminate|].
  destruct (g_ml g); [discriminate|congruence].
Qed.

Lemma probe_checked s e p :
  binding_of s e = Checked ->
  (flagged p = true -> probe s e p = (UnsafeAnalysis, [])) /\
  (fst (probe s e p) = Returned -> flagged p = false).
Proof.
  intros H. unfold probe. rewrite H. simpl.
  destruct (flagged p); split; intros H0; try reflexivity; discriminate.
Qed.

Lemma probe_checked_over_ml s e p a :
  binding_of s e = Checked -> pls s = ML a -> flagged p = false ->
  probe s e p = ml_resolve a (globals p).
Proof. intros H H1 H2. unfold probe. rewrite H. simpl. rewrite H2, H1. reflexivity. Qed.

Lemma probe_checked_over_orig s e p :
  binding_of s e = Checked -> pls s = Orig -> flagged p = false ->
  probe s e p = (Returned, globals p).
Proof. intros H H1 H2. unfold probe. rewrite H. simpl. rewrite H2, H1. reflexivity. Qed.

Lemma probe_ml s e p a :
  binding_of s e = ML a ->
  probe s e p = (ml_result a (globals p), take_ok a (globals p)).
Proof. intros H. unfold probe. rewrite H. simpl. apply ml_resolve_spec. Qed.

Lemma probe_no_recursion s e p : pls s <> Checked -> fst (probe s e p) <> RecursionErr.
Proof.
  intros H. unfold probe. destruct (binding_of s e); simpl.
  - discriminate.
  - destruct (flagged p); simpl; [discriminate|].
    destruct (pls s) eqn:E; simpl; [discriminate|congruence|apply ml_resolve_no_recursion].
  - apply ml_resolve_no_recursion.
Qed.

Lemma hrun_app h1 h2 : forall s, hrun s (h1 ++ h2) = hrun (hrun s h1) h2.
Proof. induction h1 as [|o r IH]; intros s; simpl; [reflexivity|apply IH]. Qed.

Lemma grun_app h1 h2 : forall g, grun g (h1 ++ h2) = grun (grun g h1) h2.
Proof. induction h1 as [|o r IH]; intros g; simpl; [reflexivity|apply IH]. Qed.

Definition is_leave (o : hop) : bool :=
  match o with HLeave | HLeaveExc => true | _ => false end.

Lemma ctxs_discipline h : forall d' s top base,
  ctxs s = top ++ base -> depth_ok (List.length top) h = Some d' ->
  exists top', ctxs (hrun s h) = top' ++ base /\ List.length top' = d'.
Proof.
  induction h as [|o r IH]; intros d' s top base Hc Hd; cbn [hrun depth_ok] in *.
  - injection Hd as <-. exists top. split; [exact Hc|reflexivity].
  - pose proof (ctxs_hstep s o) as Hs. rewrite Hc in Hs.
    destruct o; cbn [stk] in Hs; try (eapply IH; eassumption).
    2, 3: destruct top as [|t top0]; [discriminate|]; exact (IH d' _ top0 base Hs Hd).
    exact (IH d' _ (snapshot s :: top) base Hs Hd).
Qed.

Lemma balanced_keeps_stack h s : balanced h = true -> ctxs (hrun s h) = ctxs s.
Proof.
  unfold balanced. intros H. destruct (depth_ok 0 h) as [[|n]|] eqn:E; try discriminate.
  destruct (ctxs_discipline h 0 s [] (ctxs s) eq_refl E) as ([|] & Hc & Hl); [exact Hc|discriminate].
Qed.

Lemma leave_restores s0 seg lv :
  balanced seg = true -> is_leave lv = true ->
  hstep (hrun s0 (HEnter :: seg)) lv = s0.
Proof.
  intros Hb Hl.
  assert (Hc : ctxs (hrun s0 (HEnter :: seg)) = snapshot s0 :: ctxs s0).
  { simpl. rewrite balanced_keeps_stack by exact Hb. reflexivity. }
  destruct lv; try discriminate; cbn [hstep]; rewrite Hc; destruct s0; reflexivity.
Qed.

Definition all_orig (s : hstate) : Prop :=
  pl s = Orig /\ pls s = Orig /\ cl s = Orig /\ cls s = Orig /\ pu s = Orig.

Definition inert (o : hop) : bool :=
  match o with HArm | HActivate _ | HEnter => false | _ => true end.

Lemma inert_keeps_orig h : forall s,
  all_orig s -> ctxs s = [] -> forallb inert h = true -> all_orig (hrun s h) /\ ctxs (hrun s h) = [].
Proof.
  induction h as [|o r IH]; intros s Ho Hc Hi; simpl; [auto|].
  simpl in Hi. apply andb_true_iff in Hi. destruct Hi as [Hi1 Hi2].
  apply IH; [| |exact Hi2]; destruct o; simpl in *; try discriminate; try rewrite Hc; auto;
    repeat split; reflexivity.
Qed.

Lemma exception_step_same s : hstep s HLeaveExc = hstep s HLeave.
Proof. reflexivity. Qed.

(* pickle.load, then what the open contexts saved for it, innermost first *)
Definition pl_chain (s : hstate) : list binding := pl s :: map s_pl (ctxs s).

(* all but the last (bound before the outermost context) are protections *)
Fixpoint abl (l : list binding) : Prop :=
  match l with
  | [] => True
  | x :: r => match r with [] => True | _ :: _ => x <> Orig /\ abl r end
  end.

Lemma abl_tail x r : abl (x :: r) -> abl r.
Proof. destruct r; simpl; tauto. Qed.

Lemma abl_cons x r : x <> Orig -> abl r -> abl (x :: r).
Proof. destruct r; simpl; auto. Qed.

Lemma abl_hstep s o : abl (pl_chain s) -> (o = HRemove -> ctxs s = []) -> abl (pl_chain (hstep s o)).
Proof.
  intros Hp Hr. pose proof (abl_tail _ _ Hp) as Ht. unfold pl_chain in *.
  destruct o; cbn [hstep pl ctxs map]; try exact Hp.
  1, 2: apply abl_cons; [discriminate|exact Ht].
  3, 4: destruct (ctxs s) eqn:E; cbn [pl ctxs]; [rewrite E; exact Hp|exact Ht].
  - rewrite (Hr eq_refl). exact I.
  - split; [discriminate|exact Hp].
Qed.

Lemma abl_run h : forall s,
  abl (pl_chain s) -> rm_outside (List.length (ctxs s)) h = true -> abl (pl_chain (hrun s h)).
Proof.
  induction h as [|o r IH]; intros s Hp Hd; cbn [hrun]; [exact Hp|]. apply IH.
  - apply abl_hstep; [exact Hp|]. intros ->. cbn [rm_outside] in Hd.
    apply andb_prop, proj1, Nat.eqb_eq, length_zero_iff_nil in Hd. exact Hd.
  - rewrite ctxs_hstep. destruct o; cbn [rm_outside stk] in *; try exact Hd.
    2, 3: destruct (ctxs s); [discriminate|exact Hd].
    exact (proj2 (andb_prop _ _ Hd)).
Qed.

Lemma armed_protected h :
  rm_outside 0 h = true ->
  let s := hrun h_init h in
  let g := grun g_init h in
  (mech_on g \/ 0 < g_depth g -> pl s <> Orig) /\
  List.length (ctxs s) = g_depth g.
Proof.
  intros Hd s g. destruct (switched_on_protected h) as (_ & Hm & Hl). fold s in Hm, Hl. fold g in Hm, Hl.
  split; [|exact Hl]. intros [H|H]; [apply Hm; exact H|].
  pose proof (abl_run h h_init I Hd) as Hp. fold s in Hp.
  rewrite <- Hl in H. unfold pl_chain in Hp. destruct (ctxs s) as [|v rr]; [simpl in H; lia|].
  cbn in Hp. tauto.
Qed.
