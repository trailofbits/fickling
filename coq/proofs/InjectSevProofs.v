(* C08: the injected call as fickling's symbolic interpreter sees it.  A run only ever adds statements
   in front of the module body (grows) and the encoded arguments emit none (fpushes), so a call set-up
   followed by REDUCE leaves `_var<i> = n(...)`, the callee printed by its NAME, in every later body
   (block_recorded).  The verdict, hence C08's severity theorems, goes by the printed callee names. *)
From Coq Require Import List String ZArith Bool Arith.
From Verif Require Import Base Ops Interp ShapeProofs Inject InjectProofs.
Import ListNotations.
Local Open Scope nat_scope.
Local Open Scope list_scope.

Definition grows (s s' : fk) : Prop := exists new, body s' = new ++ body s.

Lemma grows_refl s : grows s s.
Proof. exists []. reflexivity. Qed.
Lemma grows_trans s1 s2 s3 : grows s1 s2 -> grows s2 s3 -> grows s1 s3.
Proof. intros (a & A) (b & B). exists (b ++ a). rewrite B, A, app_assoc. reflexivity. Qed.
Lemma grows_mk s s1 st mm ns c sp : grows s s1 -> grows s (mkFk st mm ns (body s1) c sp).
Proof. exact (fun G => G). Qed.
Lemma grows_mk_cons s s1 x st mm ns c sp : grows s s1 -> grows s (mkFk st mm ns (x :: body s1) c sp).
Proof. intros (a & A). exists (x :: a). cbn [body app]. rewrite A. reflexivity. Qed.

Lemma grows_emit_import s s1 m n : grows s s1 -> grows s (emit_import m n s1).
Proof. unfold emit_import. destruct (is_builtins m); [auto|apply grows_mk_cons]. Qed.
Lemma grows_bind_call s s1 c : grows s s1 -> grows s (bind_call c s1).
Proof. intros G. apply grows_mk, grows_mk_cons, G. Qed.
Lemma grows_alloc s s1 nd : grows s s1 -> grows s (snd (alloc nd s1)).
Proof. apply grows_mk. Qed.
Lemma grows_new_variable s s1 e : grows s s1 -> grows s (snd (new_variable e s1)).
Proof. apply grows_mk_cons. Qed.

Create HintDb grows.
#[local] Hint Resolve grows_refl grows_mk grows_mk_cons grows_emit_import grows_bind_call grows_alloc
  grows_new_variable : grows.

Lemma step_body o s s' : step o s = Ok s' -> grows s s'.
Proof.
  intros H. destruct (step_sound _ _ _ H); eauto 6 with grows.
  (* SETITEMS on a stand-in: its assignment, then one statement per pair *)
  eexists (_ ++ [_]). cbn [body]. rewrite <- app_assoc. reflexivity.
Qed.

Lemma run_body p s s' : run_from p s = Ok s' -> grows s s'.
Proof.
  intros H. apply (run_ind (grows s) p s s'); [|exact H|apply grows_refl].
  intros o a a' _ _ Ha G. exact (grows_trans _ _ _ G (step_body _ _ _ Ha)).
Qed.

Lemma run_body_In p s s' x : run_from p s = Ok s' -> In x (body s) -> In x (body s').
Proof. intros H Hx. destruct (run_body _ _ _ H) as (new & ->). apply in_or_app. right. exact Hx. Qed.

Lemma run_not_stopped p s s' : stop_free p = true -> run_from p s = Ok s' -> stopped s' = stopped s.
Proof.
  intros SF H. apply (run_ind (fun x => stopped x = stopped s) p s s'); [|exact H|reflexivity].
  intros o a a' Hin _ Hst Ha. rewrite <- Ha. destruct (step_halts _ _ _ Hst) as [(-> & _)|[_ E]]; [|exact E].
  apply (proj1 (forallb_forall _ _) SF) in Hin. discriminate Hin.
Qed.

Lemma split_mark_items l st acc : split_mark (map IE l ++ IMark :: st) acc = Ok (rev l ++ acc, st).
Proof.
  revert acc. induction l as [|e r IH]; intros acc; [reflexivity|].
  cbn [map app split_mark]. rewrite IH. cbn [rev]. rewrite <- app_assoc. reflexivity.
Qed.

Lemma pop_slice_items l st mm ns bd ct sp :
  pop_slice (mkFk (map IE l ++ IMark :: st) mm ns bd ct sp) = Ok (rev l, mkFk st mm ns bd ct sp).
Proof. unfold pop_slice. cbn [stack]. rewrite split_mark_items, app_nil_r. reflexivity. Qed.

Lemma fk_mark r st mm ns bd ct :
  run_from (OMark :: r) (mkFk st mm ns bd ct false) = run_from r (mkFk (IMark :: st) mm ns bd ct false).
Proof. reflexivity. Qed.
Lemma fk_const c r st mm ns bd ct :
  run_from (OConst c :: r) (mkFk st mm ns bd ct false) = run_from r (mkFk (IE (EConst c) :: st) mm ns bd ct false).
Proof. reflexivity. Qed.

Lemma fk_global m n r st mm ns bd ct :
  plain2 m n = true ->
  run_from (OGlobal m n :: r) (mkFk st mm ns bd ct false) =
  run_from r (mkFk (IE (EName n) :: st) mm ns (import_stmts m n ++ bd) ct false).
Proof. intros P. rewrite run_cons. unfold step. unfold plain2 in P. rewrite P, emit_import_state. reflexivity. Qed.

Lemma fk_pop x r st mm ns bd ct :
  run_from (OPop :: r) (mkFk (IE x :: st) mm ns bd ct false) = run_from r (mkFk st mm ns bd ct false).
Proof. reflexivity. Qed.

Lemma fk_reduce n es r st mm ns bd ct :
  run_from (OReduce :: r) (mkFk (IE (ETuple es) :: IE (EName n) :: st) mm ns bd ct false) =
  run_from r (mkFk (IE (EVar ct) :: st) mm ns (SAssignV ct (ECall (EName n) es None) :: bd) (S ct) false).
Proof. reflexivity. Qed.

Definition fpushes (a : arg) : Prop :=
  forall st mm ns bd ct, exists e ns', forall rest,
    run_from (encode_obj a ++ rest) (mkFk st mm ns bd ct false) =
    run_from rest (mkFk (IE e :: st) mm ns' bd ct false).

Lemma fk_encode_objs l : Forall fpushes l ->
  forall st mm ns bd ct, exists es ns', forall rest,
    run_from (encode_objs l ++ rest) (mkFk st mm ns bd ct false) =
    run_from rest (mkFk (map IE es ++ st) mm ns' bd ct false).
Proof.
  induction 1 as [|x r Hx _ IH]; intros st mm ns bd ct.
  - exists [], ns. reflexivity.
  - destruct (Hx st mm ns bd ct) as (e & ns1 & E1). destruct (IH (IE e :: st) mm ns1 bd ct) as (es & ns2 & E2).
    exists (es ++ [e]), ns2. intros rest.
    rewrite encode_objs_cons, <- app_assoc, E1, E2, map_app, <- app_assoc. reflexivity.
Qed.

Lemma fk_enc_dict kvs : Forall (fun kv => fpushes (snd kv)) kvs ->
  forall st mm ns bd ct, exists es ns',
    Nat.even (List.length es) = true /\ forall rest,
    run_from (enc_dict kvs ++ rest) (mkFk st mm ns bd ct false) =
    run_from rest (mkFk (map IE es ++ st) mm ns' bd ct false).
Proof.
  induction 1 as [|[k v] r Hx _ IH]; intros st mm ns bd ct.
  - exists [], ns. split; reflexivity.
  - cbn [snd] in Hx. destruct (Hx (IE (EConst k) :: st) mm ns bd ct) as (e & ns1 & E1).
    destruct (IH (IE e :: IE (EConst k) :: st) mm ns1 bd ct) as (es & ns2 & EV & E2).
    exists (es ++ [e; EConst k]), ns2. split.
    + rewrite app_length. cbn [List.length]. rewrite Nat.add_comm. cbn [Nat.add Nat.even]. exact EV.
    + intros rest. cbn [enc_dict app]. rewrite fk_const, <- app_assoc, E1, E2, map_app, <- app_assoc. reflexivity.
Qed.

Lemma encode_obj_fpushes : forall a, fpushes a.
Proof.
  apply arg_ind'.
  - intros c st mm ns bd ct. exists (EConst c), ns. reflexivity.
  - intros l F st mm ns bd ct. destruct (fk_encode_objs l F (IMark :: st) mm ns bd ct) as (es & ns1 & E).
    eexists _, _. intros rest. rewrite encode_AList. cbn [app]. rewrite fk_mark, <- app_assoc, E. cbn [app].
    rewrite run_cons. unfold step. rewrite pop_slice_items. reflexivity.
  - intros kvs F st mm ns bd ct. destruct kvs as [|kv kvs].
    + eexists _, _. reflexivity.
    + destruct (fk_enc_dict _ F (IMark :: st) mm ns bd ct) as (es & ns1 & EV & E).
      eexists _, _. intros rest. rewrite encode_ADict_cons. cbn [app]. rewrite fk_mark, <- app_assoc, E. cbn [app].
      rewrite run_cons. unfold step. rewrite pop_slice_items. cbn [bind]. rewrite rev_length, EV. reflexivity.
Qed.

Lemma fk_setup_block m n args st mm ns bd ct :
  plain2 m n = true ->
  exists es ns', forall rest,
    run_from (call_setup m n (encode_objs args) ++ rest) (mkFk st mm ns bd ct false) =
    run_from rest (mkFk (IE (ETuple es) :: IE (EName n) :: st) mm ns' (import_stmts m n ++ bd) ct false).
Proof.
  intros P.
  destruct (fk_encode_objs args (proj2 (Forall_forall fpushes args) (fun a _ => encode_obj_fpushes a))
              (IMark :: IE (EName n) :: st) mm ns (import_stmts m n ++ bd) ct) as (es & ns1 & E).
  eexists _, _. intros rest. unfold call_setup. cbn [app]. rewrite fk_global, fk_mark, <- app_assoc, E by exact P.
  cbn [app]. rewrite run_cons. unfold step. rewrite pop_slice_items. reflexivity.
Qed.

Lemma block_recorded pre m n args rest s0 s :
  stop_free pre = true -> stopped s0 = false -> plain2 m n = true ->
  run_from (pre ++ call_setup m n (encode_objs args) ++ OReduce :: rest) s0 = Ok s ->
  exists i es, In (SAssignV i (ECall (EName n) es None)) (body s).
Proof.
  intros SF NS0 P H. rewrite run_app in H. destruct (run_from pre s0) as [sA|] eqn:RA; [|discriminate].
  cbn [bind] in H. pose proof (run_not_stopped _ _ _ SF RA) as NS. rewrite NS0 in NS.
  destruct sA as [st mm ns bd ct sp]. cbn in NS. subst sp.
  destruct (fk_setup_block m n args st mm ns bd ct P) as (es & ns' & E). rewrite E, fk_reduce in H.
  exists ct, es. exact (run_body_In _ _ _ _ H (or_introl eq_refl)).
Qed.

Lemma append_ops_block m n cs pop :
  append_ops m n cs pop = call_setup m n (encode_objs (map AConst cs)) ++ OReduce :: (if pop then [OPop] else []).
Proof.
  unfold append_ops, call_setup. rewrite encode_objs_consts, <- !app_assoc. reflexivity.
Qed.
