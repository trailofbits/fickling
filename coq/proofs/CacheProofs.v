(* C13, C14, model/Cache.v.  First the generic machine, for every interpreter, visitor, answer function
   and opcode encoding; then the instance: the iteration order of the `defined - used` set shows only in
   the order of the UnusedVariables findings; last, what a re-parse of dumps() preserves of the opcodes. *)
From Coq Require Import List String ZArith Bool Lia Permutation.
From Coq.Strings Require Import Byte.
From Verif Require Import Base BaseProofs Ops Interp StepFacts Severity Analysis AnalysisTable Cache
  SeverityProofs AnalysisProofs.
From Verif Require CodecProofs.
Import ListNotations.
Local Open Scope nat_scope.
Local Open Scope list_scope.

Lemma py_index_spec n i k : py_index n i = Some k <->
  (0 <= i < Z.of_nat n)%Z /\ k = Z.to_nat i \/
  (- Z.of_nat n <= i < 0)%Z /\ k = Z.to_nat (i + Z.of_nat n).
Proof.
  unfold py_index. destruct (Z.ltb_spec i 0);
    [destruct (Z.ltb_spec (i + Z.of_nat n) 0); [|destruct (Z.ltb_spec (i + Z.of_nat n) (Z.of_nat n))]
    |destruct (Z.ltb_spec i 0); [|destruct (Z.ltb_spec i (Z.of_nat n))]];
    (split; [intros [= <-]|intros [[? ->]|[? ->]]]); try reflexivity; lia.
Qed.

Lemma py_index_nat n i : i < n -> py_index n (Z.of_nat i) = Some i.
Proof. intros H. apply py_index_spec. lia. Qed.

Lemma py_index_last n : py_index (S n) (-1) = Some n.
Proof. apply py_index_spec. lia. Qed.

Lemma py_clamp_len n : py_clamp n (Z.of_nat n) = n.
Proof.
  assert ((Z.of_nat n <? 0)%Z = false) as E by (apply Z.ltb_ge; lia).
  unfold py_clamp. rewrite E. cbv zeta iota. rewrite E, Z.ltb_irrefl. apply Nat2Z.id.
Qed.

Lemma list_set_set_nth {X} (l : list X) i x : i < List.length l -> list_set i x l = set_nth i x l.
Proof. intros H. exact (eq_sym (set_nth_split i x l H)). Qed.

Lemma list_set_length {X} (l : list X) i x : i < List.length l -> List.length (list_set i x l) = List.length l.
Proof. intros H. rewrite list_set_set_nth by exact H. apply set_nth_length. Qed.

Lemma list_del_length {X} (l : list X) i : i < List.length l -> S (List.length (list_del i l)) = List.length l.
Proof. intros H. unfold list_del. rewrite app_length, firstn_length, skipn_length. lia. Qed.

Lemma nth_error_list_set {X} (l : list X) i x j : i < List.length l ->
  nth_error (list_set i x l) j = if Nat.eqb j i then Some x else nth_error l j.
Proof. intros H. rewrite list_set_set_nth by exact H. apply nth_error_set_nth, H. Qed.

Section Generic.
Variables X A P R B VA VP VF : Type.
Variable interpret : list X -> res A.
Variable props_of : A -> res P.
Variable ast_view : VA -> A -> R.
Variable props_view : VP -> P -> R.
Variable safety_view : list X -> P -> R.
Variable fresh_view : VF -> list X -> R.
Variable err_ans : err -> R.
Variable data : X -> res (list B).
Variable x_eqb : X -> X -> bool.

Notation pk := (pk X A P).
Notation query := (query VA VP VF).
Notation action := (action X VA VP VF).
Notation RQ := (run_query interpret props_of ast_view props_view safety_view fresh_view err_ans).
Notation RQS := (run_queries interpret props_of ast_view props_view safety_view fresh_view err_ans).
Notation SPEC := (spec_answer interpret props_of ast_view props_view safety_view fresh_view err_ans).
Notation RA := (run_action interpret props_of ast_view props_view safety_view fresh_view err_ans x_eqb).
Notation RAS := (run_actions interpret props_of ast_view props_view safety_view fresh_view err_ans x_eqb).
Notation GA := (get_ast interpret).
Notation GP := (get_props interpret props_of).
Notation SP := (spec_props interpret props_of).

Definition cache_ok (s : pk) : Prop :=
  (forall a, ast_cache s = Some a -> interpret (opcodes s) = Ok a) /\
  (forall p, props_cache s = Some p -> SP (opcodes s) = Ok p).

Lemma fresh_ok : forall l, cache_ok (fresh l).
Proof. intros l. split; cbn; intros ? H; discriminate. Qed.

Lemma get_ast_opcodes (s : pk) : opcodes (snd (GA s)) = opcodes s.
Proof. unfold get_ast. destruct (ast_cache s); [|destruct (interpret (opcodes s))]; reflexivity. Qed.

Lemma get_props_opcodes (s : pk) : opcodes (snd (GP s)) = opcodes s.
Proof.
  unfold get_props. destruct (props_cache s); [reflexivity|].
  pose proof (get_ast_opcodes s) as O. destruct (GA s) as [[a|e] s1]; [destruct (props_of a)|]; exact O.
Qed.

Lemma run_query_opcodes q (s : pk) : opcodes (snd (RQ q s)) = opcodes s.
Proof.
  destruct q; cbn [run_query]; [pose proof (get_ast_opcodes s) as O; destruct (GA s)
    |pose proof (get_props_opcodes s) as O; destruct (GP s)..|]; try exact O; reflexivity.
Qed.

Lemma run_queries_opcodes : forall qs (s : pk), opcodes (RQS qs s) = opcodes s.
Proof.
  induction qs as [|q r IH]; intros s; cbn [run_queries]; [reflexivity|].
  rewrite IH. apply run_query_opcodes.
Qed.

Lemma get_ast_spec (s : pk) : cache_ok s -> fst (GA s) = interpret (opcodes s) /\ cache_ok (snd (GA s)).
Proof.
  intros OK. pose proof OK as [Ha Hp]. unfold get_ast. destruct (ast_cache s) as [a|].
  - split; [symmetry; apply Ha; reflexivity|exact OK].
  - destruct (interpret (opcodes s)) as [a|e] eqn:Ei; cbn [fst snd]; (split; [reflexivity|]); [|exact OK].
    split; cbn [ast_cache props_cache opcodes]; [intros a' [= <-]; exact Ei|exact Hp].
Qed.

Lemma get_props_spec (s : pk) : cache_ok s -> fst (GP s) = SP (opcodes s) /\ cache_ok (snd (GP s)).
Proof.
  intros OK. unfold get_props. destruct (props_cache s) as [p|] eqn:Ep.
  - split; [symmetry; apply OK; exact Ep|exact OK].
  - destruct (get_ast_spec s OK) as (F & OK1). pose proof (get_ast_opcodes s) as O1.
    unfold spec_props. rewrite <- F. destruct (GA s) as [[a|e] s1]; cbn [fst snd] in *; [|auto].
    destruct (props_of a) as [p|e] eqn:Epo; cbn [fst snd]; (split; [reflexivity|]); [|exact OK1].
    split; cbn [ast_cache props_cache opcodes]; [apply OK1|].
    intros p' [= <-]. unfold spec_props. rewrite O1, <- F. exact Epo.
Qed.

Lemma run_query_spec q (s : pk) : cache_ok s -> fst (RQ q s) = SPEC q (opcodes s) /\ cache_ok (snd (RQ q s)).
Proof.
  intros OK. destruct q; unfold run_query, spec_answer;
    [destruct (get_ast_spec s OK) as (F & OK1); destruct (GA s)
    |destruct (get_props_spec s OK) as (F & OK1); destruct (GP s)..|]; cbn [fst snd] in *;
    [rewrite <- F..|]; auto.
Qed.

Lemma run_queries_ok : forall qs s, cache_ok s -> cache_ok (RQS qs s).
Proof.
  induction qs as [|q r IH]; intros s OK; cbn [run_queries]; [exact OK|].
  apply IH, run_query_spec, OK.
Qed.

Lemma answer_spec qs q (s : pk) : cache_ok s -> fst (RQ q (RQS qs s)) = SPEC q (opcodes s).
Proof.
  intros OK. rewrite <- (run_queries_opcodes qs s). apply run_query_spec, run_queries_ok, OK.
Qed.

Lemma queries_idempotent : forall s0, cache_ok s0 -> forall qs q,
  fst (RQ q (RQS qs s0)) = fst (RQ q s0) /\
  fst (RQ q s0) = SPEC q (opcodes s0) /\
  opcodes (RQS qs s0) = opcodes s0 /\
  dumps data (RQS qs s0) = dumps data s0.
Proof.
  intros s0 OK qs q. pose proof (answer_spec qs q s0 OK) as F1. pose proof (answer_spec [] q s0 OK) as F0.
  pose proof (run_queries_opcodes qs s0) as O.
  repeat split; [exact (eq_trans F1 (eq_sym F0)) | exact F0 | exact O | unfold dumps; rewrite O; reflexivity].
Qed.

Lemma queries_order_irrelevant : forall s0, cache_ok s0 -> forall qs1 qs2 q,
  fst (RQ q (RQS qs1 s0)) = fst (RQ q (RQS qs2 s0)).
Proof. intros s0 OK qs1 qs2 q. rewrite !answer_spec by exact OK. reflexivity. Qed.

Lemma same_opcodes_same_answers : forall s1 s2, cache_ok s1 -> cache_ok s2 ->
  opcodes s1 = opcodes s2 -> forall q, fst (RQ q s1) = fst (RQ q s2).
Proof.
  intros s1 s2 O1 O2 E q. change (fst (RQ q (RQS [] s1)) = fst (RQ q (RQS [] s2))).
  rewrite !answer_spec, E by assumption. reflexivity.
Qed.

Lemma do_prim_fst p (s : pk) :
  fst (do_prim R p s) = match apply_prim p (opcodes s) with Ok l => fresh l | Err _ => s end.
Proof. unfold do_prim. destruct (apply_prim p (opcodes s)); reflexivity. Qed.

Lemma m_extend_cons x r (s : pk) :
  fst (m_extend R (x :: r) s) = fst (m_extend R r (fst (m_append R x s))).
Proof.
  cbn [m_extend]. destruct (m_append R x s) as [s1 e1]. cbn [fst]. destruct (m_extend R r s1). reflexivity.
Qed.

Lemma m_reverse_loop_cons i r n (s : pk) hi lo :
  nth_error (opcodes s) (n - i - 1) = Some hi -> nth_error (opcodes s) i = Some lo ->
  fst (m_reverse_loop R (i :: r) n s) =
  fst (m_reverse_loop R r n (fst (do_prim R (PSet (Z.of_nat (n - i - 1)) lo)
                                    (fst (do_prim R (PSet (Z.of_nat i) hi) s))))).
Proof.
  intros Hhi Hlo. cbn [m_reverse_loop]. rewrite Hhi, Hlo.
  destruct (do_prim R (PSet (Z.of_nat i) hi) s) as [s1 e1]. cbn [fst].
  destruct (do_prim R (PSet (Z.of_nat (n - i - 1)) lo) s1) as [s2 e2]. cbn [fst].
  destruct (m_reverse_loop R r n s2). reflexivity.
Qed.

Lemma m_clear_loop_S f (s : pk) k : py_index (List.length (opcodes s)) (-1) = Some k ->
  fst (m_clear_loop R (S f) s) = fst (m_clear_loop R f (fst (do_prim R (PDel (-1)) s))).
Proof.
  intros H. cbn [m_clear_loop]. rewrite H. destruct (do_prim R (PDel (-1)) s) as [s1 e1]. cbn [fst].
  destruct (m_clear_loop R f s1). reflexivity.
Qed.

Lemma do_prim_ok : forall p (s : pk), cache_ok s -> cache_ok (fst (do_prim R p s)).
Proof.
  intros p s OK. rewrite do_prim_fst. destruct (apply_prim p (opcodes s)); [apply fresh_ok|exact OK].
Qed.

Lemma m_extend_ok : forall xs (s : pk), cache_ok s -> cache_ok (fst (m_extend R xs s)).
Proof.
  induction xs as [|x r IH]; intros s OK; [exact OK|]. rewrite m_extend_cons. apply IH, do_prim_ok, OK.
Qed.

Lemma m_reverse_loop_ok : forall idx n (s : pk), cache_ok s -> cache_ok (fst (m_reverse_loop R idx n s)).
Proof.
  induction idx as [|i r IH]; intros n s OK; [exact OK|].
  destruct (nth_error (opcodes s) (n - i - 1)) as [hi|] eqn:Hhi;
    [destruct (nth_error (opcodes s) i) as [lo|] eqn:Hlo|].
  - rewrite (m_reverse_loop_cons _ _ _ _ _ _ Hhi Hlo). apply IH, do_prim_ok, do_prim_ok, OK.
  - cbn [m_reverse_loop]. rewrite Hhi, Hlo. exact OK.
  - cbn [m_reverse_loop]. rewrite Hhi. exact OK.
Qed.

Lemma m_clear_loop_ok : forall fuel (s : pk), cache_ok s -> cache_ok (fst (m_clear_loop R fuel s)).
Proof.
  induction fuel as [|f IH]; intros s OK; [exact OK|].
  destruct (py_index (List.length (opcodes s)) (-1)) eqn:E.
  - rewrite (m_clear_loop_S _ _ _ E). apply IH, do_prim_ok, OK.
  - cbn [m_clear_loop]. rewrite E. exact OK.
Qed.

Lemma run_action_ok : forall a s, cache_ok s -> cache_ok (fst (RA a s)).
Proof.
  intros a s OK. destruct a; cbn [run_action].
  - destruct (run_query_spec q s OK) as (_ & O1). destruct (RQ q s). exact O1.
  - apply do_prim_ok, OK.
  - apply do_prim_ok, OK.
  - apply m_extend_ok, OK.
  - apply m_extend_ok, OK.
  - unfold m_pop. destruct (py_index _ i); [destruct (nth_error _ _)|]; try exact OK.
    pose proof (do_prim_ok (PDel i) s OK) as O1. destruct (do_prim R (PDel i) s). exact O1.
  - unfold m_remove. destruct (index_where _ _); [apply do_prim_ok|]; exact OK.
  - apply m_reverse_loop_ok, OK.
  - apply m_clear_loop_ok, OK.
Qed.

Lemma run_actions_ok : forall acts s, cache_ok s -> cache_ok (RAS acts s).
Proof.
  induction acts as [|a r IH]; intros s OK; cbn [run_actions]; [exact OK|].
  apply IH. apply run_action_ok; exact OK.
Qed.

Lemma read_keeps_opcodes : forall q (s : pk), opcodes (fst (RA (ARead q) s)) = opcodes s.
Proof.
  intros q s. cbn [run_action]. pose proof (run_query_opcodes q s) as O. destruct (RQ q s). exact O.
Qed.

(* cache_ok s holds after any interleaving of edits, mix-ins and reads: run_actions_ok *)
Lemma views_fresh : forall s, cache_ok s -> forall q,
  fst (RQ q s) = fst (RQ q (fresh (opcodes s))) /\ fst (RQ q s) = SPEC q (opcodes s).
Proof.
  intros s OK q. pose proof (answer_spec [] q s OK) as F.
  pose proof (answer_spec [] q (fresh (opcodes s)) (fresh_ok _)) as F2.
  split; [exact (eq_trans F (eq_sym F2))|exact F].
Qed.

Lemma dumps_loop_spec : forall l acc,
  dumps_loop data l acc =
  match all_data data l with Ok ds => Ok (acc ++ List.concat ds) | Err e => Err e end.
Proof.
  induction l as [|x r IH]; intros acc; cbn [dumps_loop all_data].
  - cbn. rewrite app_nil_r. reflexivity.
  - destruct (data x) as [d|e]; [|reflexivity]. rewrite IH.
    destruct (all_data data r); [|reflexivity]. cbn [List.concat]. rewrite app_assoc. reflexivity.
Qed.

Lemma all_data_ok_map : forall l ds, all_data data l = Ok ds -> map data l = map (@Ok _) ds.
Proof.
  induction l as [|x r IH]; intros ds H; cbn [all_data] in H.
  - inversion H. reflexivity.
  - destruct (data x) as [d|e] eqn:E; [|discriminate].
    destruct (all_data data r) as [ds'|e]; [|discriminate]. inversion H; subst.
    cbn [map]. rewrite E, (IH ds' eq_refl). reflexivity.
Qed.

Lemma m_append_list : forall x (s : pk), opcodes (fst (m_append R x s)) = opcodes s ++ [x].
Proof.
  intros x s. unfold m_append. rewrite do_prim_fst. cbn [apply_prim fresh opcodes].
  rewrite py_clamp_len. unfold list_insert. rewrite firstn_all, skipn_all. reflexivity.
Qed.

Lemma m_extend_list : forall xs (s : pk), opcodes (fst (m_extend R xs s)) = opcodes s ++ xs.
Proof.
  induction xs as [|x r IH]; intros s; [symmetry; apply app_nil_r|].
  rewrite m_extend_cons, IH, m_append_list, <- app_assoc. reflexivity.
Qed.

Lemma m_pop_list : forall i (s : pk) k, py_index (List.length (opcodes s)) i = Some k ->
  opcodes (fst (m_pop R i s)) = list_del k (opcodes s).
Proof.
  intros i s k H. unfold m_pop. rewrite H. pose proof (do_prim_fst (PDel i) s) as D.
  cbn [apply_prim] in D. rewrite H in D.
  destruct (nth_error (opcodes s) k) eqn:N; [destruct (do_prim R (PDel i) s); cbn [fst] in *; rewrite D; reflexivity|].
  apply nth_error_None in N. apply py_index_spec in H. lia.
Qed.

Lemma m_clear_loop_list : forall fuel (s : pk), List.length (opcodes s) < fuel ->
  opcodes (fst (m_clear_loop R fuel s)) = [].
Proof.
  induction fuel as [|f IH]; intros s L; [lia|].
  destruct (py_index (List.length (opcodes s)) (-1)) as [k|] eqn:E.
  - rewrite (m_clear_loop_S _ _ _ E). apply IH. rewrite do_prim_fst. cbn [apply_prim]. rewrite E.
    cbn [fresh opcodes]. apply py_index_spec in E. pose proof (list_del_length (opcodes s) k). lia.
  - cbn [m_clear_loop]. rewrite E. destruct (opcodes s) as [|x r] eqn:O; [exact O|].
    cbn [List.length] in E. rewrite py_index_last in E. discriminate.
Qed.

(* the invariant of reverse()'s loop: after the swaps of the pairs 0..a-1, positions outside [a, n-a)
   hold the mirror image of l0, those inside are untouched *)
Lemma loop_spec : forall k (s : pk) a l0 n,
  List.length l0 = n -> List.length (opcodes s) = n -> a + k <= n / 2 ->
  (forall j, j < n -> j < a \/ n - a <= j -> nth_error (opcodes s) j = nth_error l0 (n - 1 - j)) ->
  (forall j, a <= j < n - a -> nth_error (opcodes s) j = nth_error l0 j) ->
  let s' := fst (m_reverse_loop R (seq a k) n s) in
  List.length (opcodes s') = n /\
  (forall j, j < n -> j < a + k \/ n - (a + k) <= j -> nth_error (opcodes s') j = nth_error l0 (n - 1 - j)) /\
  (forall j, a + k <= j < n - (a + k) -> nth_error (opcodes s') j = nth_error l0 j).
Proof.
  induction k as [|k IH]; intros s a l0 n L0 L Hk OUT MID; cbn [seq].
  - cbn [m_reverse_loop fst]. rewrite Nat.add_0_r. auto.
  - pose proof (half_bounds n) as D.
    assert (a < n - a - 1 < n) as Ha by lia.
    destruct (nth_error l0 (n - a - 1)) as [hi|] eqn:Hhi; [|apply nth_error_None in Hhi; lia].
    destruct (nth_error l0 a) as [lo|] eqn:Hlo; [|apply nth_error_None in Hlo; lia].
    rewrite <- MID in Hhi, Hlo by lia.
    rewrite (m_reverse_loop_cons _ _ _ _ _ _ Hhi Hlo).
    set (s1 := fst (do_prim R (PSet (Z.of_nat a) hi) s)).
    assert (opcodes s1 = list_set a hi (opcodes s)) as D1.
    { unfold s1. rewrite do_prim_fst. cbn [apply_prim]. rewrite L, py_index_nat by lia. reflexivity. }
    assert (List.length (opcodes s1) = n) as L1 by (rewrite D1, list_set_length; lia).
    set (s2 := fst (do_prim R (PSet (Z.of_nat (n - a - 1)) lo) s1)).
    assert (opcodes s2 = list_set (n - a - 1) lo (opcodes s1)) as D2.
    { unfold s2. rewrite do_prim_fst. cbn [apply_prim]. rewrite L1, py_index_nat by lia. reflexivity. }
    assert (forall j, nth_error (opcodes s2) j =
              if Nat.eqb j (n - a - 1) then Some lo else if Nat.eqb j a then Some hi else nth_error (opcodes s) j) as N2.
    { intros j. rewrite D2, nth_error_list_set, D1, nth_error_list_set by lia. reflexivity. }
    replace (a + S k) with (S a + k) by lia. apply IH; [exact L0| | | |].
    + rewrite D2, list_set_length; lia.
    + lia.
    + intros j Hj Hout. rewrite N2.
      destruct (Nat.eqb_spec j (n - a - 1)) as [->|]; [rewrite <- Hlo, MID by lia; f_equal; lia|].
      destruct (Nat.eqb_spec j a) as [->|]; [rewrite <- Hhi, MID by lia; f_equal; lia|].
      apply OUT; lia.
    + intros j Hj. rewrite N2.
      destruct (Nat.eqb_spec j (n - a - 1)); [lia|]. destruct (Nat.eqb_spec j a); [lia|]. apply MID. lia.
Qed.

Lemma m_reverse_list : forall s : pk, opcodes (fst (m_reverse R s)) = rev (opcodes s).
Proof.
  intros s. unfold m_reverse. set (n := List.length (opcodes s)).
  destruct (loop_spec (n / 2) s 0 (opcodes s) n eq_refl eq_refl) as (L & OUT & MID);
    [lia | intros; lia | reflexivity |].
  cbn [Nat.add] in *. pose proof (half_bounds n) as D.
  apply nth_error_ext. intros j. destruct (Nat.lt_ge_cases j n) as [Hj|Hj].
  - rewrite nth_error_rev by exact Hj. fold n.
    destruct (Nat.lt_ge_cases j (n / 2)); [apply OUT; lia|].
    destruct (Nat.le_gt_cases (n - n / 2) j); [apply OUT; lia|].
    rewrite MID by lia. f_equal. lia.
  - transitivity (@None X); [|symmetry]; apply nth_error_None; rewrite ?rev_length; fold n; lia.
Qed.

End Generic.
Arguments cache_ok {X A P} _ _ _.

Open Scope string_scope.

(* the shared de-duplication set is only ever asked for membership *)
Definition deq (d d' : dedup) : Prop := forall t, mem_str t d = mem_str t d'.

Lemma mem_add : forall t u d, mem_str t (add u d) = String.eqb t u || mem_str t d.
Proof.
  intros t u d. unfold add. destruct (mem_str u d) eqn:M; [|reflexivity].
  destruct (String.eqb_spec t u) as [->|]; [rewrite M|]; reflexivity.
Qed.

Lemma deq_add : forall t d d', deq d d' -> deq (add t d) (add t d').
Proof. intros t d d' H u. rewrite !mem_add, H. reflexivity. Qed.

Definition respects (F : dedup -> list finding * dedup) : Prop :=
  forall d d', deq d d' -> fst (F d) = fst (F d') /\ deq (snd (F d)) (snd (F d')).

(* the form of every analysis' step at an element it reports on *)
Lemma respects_step (g : list finding -> list finding) (x y : list finding * dedup) :
  fst x = fst y /\ deq (snd x) (snd y) ->
  fst (let '(fs, d) := x in (g fs, d)) = fst (let '(fs, d) := y in (g fs, d)) /\
  deq (snd (let '(fs, d) := x in (g fs, d))) (snd (let '(fs, d) := y in (g fs, d))).
Proof. intros [E S]. destruct x, y. cbn [fst snd] in *. rewrite E. auto. Qed.

Definition rel2 (Q : list finding -> list finding -> Prop) (x y : option (list finding * dedup)) : Prop :=
  match x, y with
  | Some a, Some b => Q (fst a) (fst b) /\ deq (snd a) (snd b)
  | None, None => True
  | _, _ => False
  end.

Lemma rel2_if Q (b : bool) x y x' y' :
  rel2 Q x x' -> rel2 Q y y' -> rel2 Q (if b then x else y) (if b then x' else y').
Proof. destruct b; auto. Qed.

Section Hashseed.
Variable crepr : const -> string.
Variable std : string -> bool.

Lemma nsi_deq imps : respects (non_standard_imports std imps).
Proof.
  induction imps as [|mn r IH]; intros d d' H; cbn [non_standard_imports]; [auto|].
  destruct (std (fst mn)); [apply IH, H|].
  rewrite (H (shorten (imp_text mn))). apply respects_step, IH, deq_add, H.
Qed.

Lemma uiml_deq imps : respects (unsafe_imports_ml imps).
Proof.
  induction imps as [|mn r IH]; intros d d' H; cbn [unsafe_imports_ml]; [auto|].
  apply respects_step, IH, deq_add, H.
Qed.

Lemma bc_deq ns calls : respects (bad_calls_an crepr ns calls).
Proof.
  induction calls as [|c r IH]; intros d d' H; cbn [bad_calls_an]; [auto|].
  destruct (bad_prefix _); [|apply IH, H].
  apply (respects_step (cons _)), IH, deq_add, H.
Qed.

Lemma obe_deq ns safe calls : respects (overtly_bad_evals crepr ns safe calls).
Proof.
  induction calls as [|c r IH]; intros d d' H; cbn [overtly_bad_evals]; [auto|].
  destruct (match callee_id c with Some s => mem_str s safe | None => false end); [apply IH, H|].
  rewrite (H (shorten (call_text crepr ns c))). apply respects_step, IH, deq_add, H.
Qed.

Lemma ui_deq imps : respects (unsafe_imports_an imps).
Proof.
  induction imps as [|mn r IH]; intros d d' H; cbn [unsafe_imports_an]; [auto|].
  destruct (mem_str (fst mn) unsafe_imports_modules || (snd mn =? "eval")); [|apply IH, H].
  apply (respects_step (cons _)), IH, deq_add, H.
Qed.

Lemma mla_deq imps : respects (ml_allowlist_an imps).
Proof.
  induction imps as [|mn r IH]; intros d d' H; cbn [ml_allowlist_an]; [auto|].
  rewrite (H (shorten (imp_text mn))). apply respects_step, IH, deq_add, H.
Qed.

Definition uv_finding (ns : list node) (ie : nat * expr) : finding :=
  mkF "UnusedVariables" 0 "UnusedVariables" "SUSPICIOUS"
      (var_name (fst ie) ++ " " ++ shorten (call_text crepr ns (snd ie)))
      [BStr (var_name (fst ie)); BStr (shorten (call_text crepr ns (snd ie)))].
Definition uv_text (ns : list node) (ie : nat * expr) : string := shorten (call_text crepr ns (snd ie)).

Lemma uv_fst : forall ns un d, fst (unused_variables_an crepr ns un d) = map (uv_finding ns) un.
Proof.
  induction un as [|[i e] r IH]; intros d; cbn [unused_variables_an map]; [reflexivity|].
  specialize (IH (add (shorten (call_text crepr ns e)) d)).
  destruct (unused_variables_an crepr ns r _) as [fs d1]. cbn [fst] in *. rewrite IH. reflexivity.
Qed.

Lemma uv_snd : forall ns un d t,
  mem_str t (snd (unused_variables_an crepr ns un d)) = mem_str t d || mem_str t (map (uv_text ns) un).
Proof.
  induction un as [|[i e] r IH]; intros d t; cbn [unused_variables_an map mem_str].
  - rewrite orb_false_r. reflexivity.
  - specialize (IH (add (shorten (call_text crepr ns e)) d) t).
    destruct (unused_variables_an crepr ns r _) as [fs d1]. cbn [snd] in *. rewrite IH, mem_add.
    unfold uv_text at 2. cbn [snd].
    destruct (String.eqb t (shorten (call_text crepr ns e))), (mem_str t d); reflexivity.
Qed.

Lemma uv_perm : forall ns un un' d d', Permutation un un' -> deq d d' ->
  Permutation (fst (unused_variables_an crepr ns un d)) (fst (unused_variables_an crepr ns un' d')) /\
  deq (snd (unused_variables_an crepr ns un d)) (snd (unused_variables_an crepr ns un' d')).
Proof.
  intros ns un un' d d' HP H. rewrite !uv_fst. split; [apply Permutation_map; exact HP|].
  intros t. rewrite !uv_snd, H. f_equal.
  apply eq_true_iff_eq. rewrite !mem_str_In. pose proof (Permutation_map (uv_text ns) HP) as HP'.
  split; apply Permutation_in; [|apply Permutation_sym]; exact HP'.
Qed.

Lemma uv_deq ns un : respects (unused_variables_an crepr ns un).
Proof.
  intros d d' H. rewrite !uv_fst. split; [reflexivity|]. intros t. rewrite !uv_snd, H. reflexivity.
Qed.

Lemma run_analysis_deq : forall name protos p d d', deq d d' ->
  rel2 eq (run_analysis crepr std name protos p d) (run_analysis crepr std name protos p d').
Proof.
  intros name protos p d d' H. unfold run_analysis. cbv zeta.
  (* one branch per analysis name, in the order of the definition *)
  repeat apply rel2_if; cbn [rel2 fst snd]; auto;
    [apply nsi_deq|apply uiml_deq|apply bc_deq|apply obe_deq|apply ui_deq|apply uv_deq|apply mla_deq];
    exact H.
Qed.

Variable pi : list (nat * expr) -> list (nat * expr).
Hypothesis pi_perm : forall l, Permutation (pi l) l.

Lemma run_analysis2_rel : forall name protos p f d d', deq d d' ->
  rel2 (@Permutation _) (run_analysis2 crepr std pi name protos p f d)
                        (run_analysis2 crepr std pi_id name protos p f d').
Proof.
  intros name protos p f d d' H. unfold run_analysis2.
  destruct (name =? "UnusedVariables"); [apply uv_perm; [apply pi_perm|exact H]|].
  pose proof (run_analysis_deq name protos p d d' H) as R.
  destruct (run_analysis crepr std name protos p d), (run_analysis crepr std name protos p d'); try exact R.
  destruct R as [E S]. split; [rewrite E; apply Permutation_refl|exact S].
Qed.

Lemma run_all2_rel : forall names protos p f d d', deq d d' ->
  match run_all2 crepr std pi names protos p f d, run_all2 crepr std pi_id names protos p f d' with
  | Some fs, Some fs' => Permutation fs fs'
  | None, None => True
  | _, _ => False
  end.
Proof.
  induction names as [|n r IH]; intros protos p f d d' H; cbn [run_all2]; [apply Permutation_refl|].
  pose proof (run_analysis2_rel n protos p f d d' H) as R.
  destruct (run_analysis2 crepr std pi n protos p f d) as [[fs e]|],
           (run_analysis2 crepr std pi_id n protos p f d') as [[fs' e']|];
    try (exfalso; exact R); [|exact I].
  destruct R as [PF S]. specialize (IH protos p f e e' S).
  destruct (run_all2 crepr std pi r protos p f e), (run_all2 crepr std pi_id r protos p f e');
    try (exfalso; exact IH); [|exact I].
  apply Permutation_app; assumption.
Qed.

End Hashseed.

(* ties the two-source analysis to Analysis.run_analysis, the model C04 / C19 are proved about *)
Lemma run_analysis2_id : forall crepr std name protos s d,
  run_analysis2 crepr std pi_id name protos s s d = run_analysis crepr std name protos s d.
Proof.
  intros. unfold run_analysis2. destruct (name =? "UnusedVariables") eqn:E; [|reflexivity].
  apply String.eqb_eq in E. subst. reflexivity.
Qed.

(* the verdict is a maximum *)
Lemma severity_perm : forall l l', Forall wf l -> Permutation l l' -> severity l = severity l'.
Proof.
  assert (LE : forall l l', Forall wf l -> Permutation l l' ->
                 doc_rank (severity l) <= doc_rank (severity l')).
  { intros l l' W HP. pose proof (Permutation_Forall HP W) as W'. destruct l as [|a r].
    - apply Permutation_nil in HP. subst. reflexivity.
    - apply (severity_upper _ W'), (Permutation_in _ HP), severity_member; [exact W|discriminate]. }
  intros l l' W HP. pose proof (Permutation_Forall HP W) as W'.
  apply rank_inj; try (apply severity_wf; assumption).
  apply Nat.le_antisymm; apply LE; try assumption. apply Permutation_sym, HP.
Qed.

Lemma verdict_perm : forall fs fs', Permutation fs fs' -> verdict fs = verdict fs'.
Proof.
  intros fs fs' HP. apply severity_perm; [apply findings_wf|apply Permutation_map; exact HP].
Qed.

Definition ans_equiv (a b : ans) : Prop :=
  match a, b with
  | ASafety (Some f1), ASafety (Some f2) => Permutation f1 f2
  | _, _ => a = b
  end.

Lemma ans_equiv_refl : forall a, ans_equiv a a.
Proof.
  intros a. unfold ans_equiv. destruct a as [e|t|b|n|l|r|ex t|r]; try reflexivity.
  destruct r; [apply Permutation_refl|reflexivity].
Qed.

Lemma inst_spec_equiv : forall crepr std pi, (forall l, Permutation (pi l) l) ->
  forall q l, ans_equiv (inst_spec_answer crepr std pi q l) (inst_spec_answer crepr std pi_id q l).
Proof.
  intros crepr std pi HP q l. unfold inst_spec_answer, spec_answer.
  destruct q as [v|v| |v]; try apply ans_equiv_refl.
  destruct (spec_props inst_interpret inst_props l) as [p|e]; [|reflexivity].
  unfold inst_safety. destruct (inst_interpret l) as [f|e]; [|reflexivity].
  pose proof (run_all2_rel crepr std pi HP analysis_order (protos_of l) p f [] [] (fun t => eq_refl)) as R.
  unfold ans_equiv.
  destruct (run_all2 crepr std pi analysis_order (protos_of l) p f []),
           (run_all2 crepr std pi_id analysis_order (protos_of l) p f []); try exact R; try contradiction.
  reflexivity.
Qed.

(* what interpreter and analyses see of a parsed opcode: its pickletools row and its bytes (the
   decoded argument is a function of them), not its position in the stream *)
Definition strip (o : Codec.opc) : Codec.oprow * option (list byte) := (Codec.o_row o, Codec.o_data o).

Lemma strip_shift : forall k ops, map strip (map (CodecProofs.shift_opc k) ops) = map strip ops.
Proof. intros k ops. rewrite map_map. apply map_ext. intros o. reflexivity. Qed.

Lemma reparse_same : forall b p, CodecProofs.complete b p -> forall pre rest,
  exists ops e,
    Codec.load_stream (pre ++ b ++ rest) (List.length pre) = Codec.LOk (ops, e) /\
    Codec.dumps ops = Ok b /\
    Codec.load_stream b 0 = Codec.LOk (p, List.length b) /\
    map strip p = map strip ops.
Proof.
  intros b p H pre rest. unfold CodecProofs.complete in H.
  exists (map (CodecProofs.shift_opc (List.length pre)) p), (List.length pre + List.length b).
  split; [apply CodecProofs.load_stream_prefix; exact H|]. split; [|split; [exact H|]].
  - rewrite CodecProofs.dumps_shift. destruct (CodecProofs.load_stream_exact _ _ _ _ H) as (D & _). rewrite D.
    unfold Codec.read_at. cbn [skipn]. rewrite Nat.sub_0_r, firstn_all. reflexivity.
  - symmetry. apply strip_shift.
Qed.
