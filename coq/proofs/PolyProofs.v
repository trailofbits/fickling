(* C17: format identification and create_polyglot (model/Poly.v against model/PolySpec.v). The
   identification table comes from evaluating [identify] on all 2048 property records against the
   documented conditions; create_polyglot's frame: outside a shrinking set of scratch paths the file
   system stays as it was. *)
From Coq Require Import List String Ascii Bool.
From Verif Require Import Base BaseProofs PolyTable Poly PolySpec.
Import ListNotations.
Open Scope string_scope.

(* [Poly.lookup] / [Poly.remove] and [Torch.flookup] / [Torch.fremove] are these two functions at
   [node] and at [archive]. [alookup l p] is [Base.assoc_str p l] with the arguments (and those of
   the key test) the other way round; kept apart so that [lookup_remove], [lookup_write] and
   TorchProofs' [flookup_*] hold by conversion. *)
Section Assoc.
  Context {A : Type}.

  Fixpoint alookup (l : list (string * A)) (p : string) : option A :=
    match l with
    | [] => None
    | (q, a) :: r => if String.eqb q p then Some a else alookup r p
    end.

  Fixpoint aremove (l : list (string * A)) (p : string) : list (string * A) :=
    match l with
    | [] => []
    | (q, a) :: r => if String.eqb q p then aremove r p else (q, a) :: aremove r p
    end.

  Lemma alookup_remove : forall l p q,
    alookup (aremove l p) q = if String.eqb p q then None else alookup l q.
  Proof.
    induction l as [|[k a] r IH]; intros p q; simpl.
    - destruct (p =? q); reflexivity.
    - destruct (String.eqb_spec k p) as [->|]; simpl; rewrite IH.
      + destruct (p =? q); reflexivity.
      + destruct (String.eqb_spec k q) as [->|]; [|reflexivity].
        destruct (String.eqb_spec p q); [congruence|reflexivity].
  Qed.

  Lemma alookup_write : forall l p a q,
    alookup ((p, a) :: aremove l p) q = if String.eqb p q then Some a else alookup l q.
  Proof. intros. simpl. rewrite alookup_remove. destruct (p =? q); reflexivity. Qed.
End Assoc.

Lemma prefix_spec : forall s n, prefix s n = true <-> exists b, n = s ++ b.
Proof.
  induction s as [|a s IH]; intros n; simpl.
  - destruct n; split; intros; eauto.
  - destruct n as [|b n]; simpl.
    + split; [discriminate|]. intros [x H]. discriminate.
    + destruct (ascii_dec a b) as [->|Hne].
      * rewrite IH. split; intros [x H]; exists x; [subst; reflexivity|]. inversion H; reflexivity.
      * split; [discriminate|]. intros [x H]. inversion H. congruence.
Qed.

Lemma prefix_app : forall s x, prefix s (s ++ x) = true.
Proof. intros. apply prefix_spec. eauto. Qed.

Lemma prefix_refl : forall s, prefix s s = true.
Proof. intros. apply prefix_spec. exists "". symmetry. apply append_nil_r. Qed.

Lemma contains_eq : forall s n,
  contains s n = if prefix s n then true
                 else match n with EmptyString => false | String _ r => contains s r end.
Proof. destruct n; reflexivity. Qed.

Lemma contains_spec : forall s n, contains s n = true <-> exists a b, n = a ++ s ++ b.
Proof.
  intros s n. split.
  - induction n as [|c n IH]; rewrite contains_eq; destruct (prefix s _) eqn:P;
      try (intros _; apply prefix_spec in P; destruct P as [b ->]; exists "", b; reflexivity).
    + discriminate.
    + intros H. destruct (IH H) as (a & b & ->). exists (String c a), b. reflexivity.
  - intros (a & b & ->). induction a as [|c a IH]; cbn [append]; rewrite contains_eq.
    + rewrite prefix_app. reflexivity.
    + rewrite IH. destruct (prefix s _); reflexivity.
Qed.

Lemma ends_with_spec : forall s n, ends_with s n = true <-> exists a, n = a ++ s.
Proof.
  intros s n. split.
  - induction n as [|c n IH]; simpl; destruct (s =? _) eqn:E;
      try (intros _; apply String.eqb_eq in E; rewrite E; exists ""; reflexivity).
    + discriminate.
    + intros H. destruct (IH H) as (a & ->). exists (String c a). reflexivity.
  - intros (a & ->). induction a as [|c a IH]; simpl.
    + destruct s; cbn [ends_with]; rewrite String.eqb_refl; reflexivity.
    + rewrite IH. destruct (s =? _); reflexivity.
Qed.

Lemma ends_with_contains : forall x s n, ends_with (x ++ s) n = true -> contains s n = true.
Proof.
  intros x s n H. apply ends_with_spec in H. destruct H as [a H].
  apply contains_spec. exists (a ++ x), "". rewrite append_nil_r, append_assoc. exact H.
Qed.

(* [MLNest.list_str_eqb], repeated so as not to load the allowlist models *)
Fixpoint list_str_eqb (a b : list string) : bool :=
  match a, b with
  | [], [] => true
  | x :: r, y :: t => String.eqb x y && list_str_eqb r t
  | _, _ => false
  end.

Lemma list_str_eqb_eq : forall a b, list_str_eqb a b = true -> a = b.
Proof.
  induction a; destruct b; simpl; intros H; try discriminate; auto.
  apply andb_true_iff in H. destruct H as [H1 H2]. apply String.eqb_eq in H1. f_equal; auto.
Qed.

(* TorchScript v1.0 needs constants.pkl besides its documented members
   (C17_observation_v10_needs_constants) *)
Definition zip_cond (p : props) (r : string * list string) : bool :=
  is_torch_zip p && forallb (marker p) (snd r)
  && (has_constants_pkl p || negb (fst r =? "TorchScript v1.0")).

(* the documented names in precedence order, each with its condition *)
Definition conds (p : props) : list (string * bool) :=
  map (fun r => (fst r, zip_cond p r)) doc_zip_table
  ++ [("PyTorch v0.1.1", is_tar p && legacy_ok p); ("PyTorch v0.1.10", is_valid_pickle p);
      ("PyTorch model archive format", is_standard_zip p && mar_ok p)].

Definition expected (p : props) : list string := map fst (filter snd (conds p)).

(* The same conditions read off the fields: what the sweep evaluates, since [marker] would compare
   member names in every record. *)
Definition flags (p : props) : list bool :=
  let z := is_torch_zip p in
  let d := has_data_pkl p in
  let c := has_constants_pkl p in
  let m := has_model_json p in
  [z && d && c && has_version p; z && d && c; z && m && c; z && m && has_attributes_pkl p; z && d;
   is_tar p && legacy_ok p; is_valid_pickle p; is_standard_zip p && mar_ok p].

Lemma conds_flags : forall p, conds p = combine precedence (flags p).
Proof. intros [z t k s d c v m a l r]. destruct z, d, c, v, m, a; reflexivity. Qed.

Definition identify_ok (p : props) : bool :=
  match identify p with
  | Ok fs => list_str_eqb fs (map fst (filter snd (combine precedence (flags p))))
  | Err _ => false
  end.

Definition bools : list bool := [true; false].

Definition all_props : list props :=
  flat_map (fun a => flat_map (fun b => flat_map (fun c => flat_map (fun d =>
  flat_map (fun e => flat_map (fun f => flat_map (fun g => flat_map (fun h =>
  flat_map (fun i => flat_map (fun j => map (fun k => mkProps a b c d e f g h i j k) bools)
  bools) bools) bools) bools) bools) bools) bools) bools) bools) bools.

Lemma in_bools : forall b, In b bools.
Proof. destruct b; simpl; auto. Qed.

Lemma all_props_length : List.length all_props = 2048.
Proof. vm_compute. reflexivity. Qed.

Lemma in_flat_map_bools : forall {B} (f : bool -> list B) b x, In x (f b) -> In x (flat_map f bools).
Proof. intros B f b x H. apply in_flat_map. exists b. split; [apply in_bools|exact H]. Qed.

Lemma all_props_complete : forall p, In p all_props.
Proof.
  intros [a b c d e f g h i j k]. unfold all_props.
  do 10 eapply in_flat_map_bools. apply in_map, in_bools.
Qed.

Lemma identify_ok_all : forallb identify_ok all_props = true.
Proof. vm_compute. reflexivity. Qed.

Lemma identify_expected : forall p, identify p = Ok (expected p).
Proof.
  intros p. pose proof (proj1 (forallb_forall identify_ok all_props) identify_ok_all p (all_props_complete p)) as H.
  unfold identify_ok in H. destruct (identify p) as [fs|e]; [|discriminate].
  unfold expected. rewrite conds_flags. f_equal. apply list_str_eqb_eq, H.
Qed.

(* [nodup] leaves all eight names, by conversion *)
Lemma precedence_NoDup : NoDup precedence.
Proof. exact (NoDup_nodup string_dec precedence). Qed.

Lemma In_assoc_str : forall {A} (l : list (string * A)) k a,
  NoDup (map fst l) -> In (k, a) l -> assoc_str k l = Some a.
Proof.
  induction l as [|[k0 a0] l IH]; simpl; intros k a N H; [contradiction|].
  inversion N as [|? ? N1 N2]; subst. destruct H as [H|H].
  - inversion H; subst. rewrite String.eqb_refl. reflexivity.
  - destruct (String.eqb_spec k k0) as [->|]; [|auto].
    elim N1. exact (in_map fst _ _ H).
Qed.

Lemma selected_keys : forall (l : list (string * bool)) (P : string -> bool),
  (forall k c, In (k, c) l -> P k = c) -> map fst (filter snd l) = filter P (map fst l).
Proof.
  induction l as [|[k c] l IH]; intros P H; simpl; [reflexivity|].
  rewrite (H k c (or_introl eq_refl)).
  destruct c; simpl; rewrite (IH P) by (intros; apply H; right; assumption); reflexivity.
Qed.

Lemma expected_iff : forall p f c, In (f, c) (conds p) -> (In f (expected p) <-> c = true).
Proof.
  intros p f c H. unfold expected. rewrite in_map_iff. split.
  - intros ([f' c'] & E & H'). apply filter_In in H'. destruct H' as [H' C]. simpl in E, C. subst f' c'.
    apply (In_assoc_str (conds p) _ _ precedence_NoDup) in H, H'. congruence.
  - intros ->. exists (f, true). split; [reflexivity|]. apply filter_In. auto.
Qed.

Lemma expected_ordered : forall p, expected p = filter (fun f => mem_str f (expected p)) precedence.
Proof.
  intros p. apply (selected_keys (conds p)). intros f c H.
  apply expected_iff in H. rewrite <- mem_str_In in H. destruct c, (mem_str f (expected p)); intuition congruence.
Qed.

Lemma table_holds : forall p, exists fs, identify p = Ok fs /\
  fs = filter (fun f => mem_str f fs) precedence /\
  (forall f ms, In (f, ms) doc_zip_table -> In f fs ->
     is_torch_zip p = true /\ forall m, In m ms -> marker p m = true) /\
  (forall f ms, In (f, ms) doc_zip_table -> f <> "TorchScript v1.0" -> is_torch_zip p = true ->
     (forall m, In m ms -> marker p m = true) -> In f fs) /\
  (In "TorchScript v1.0" fs <->
     is_torch_zip p = true /\ has_model_json p = true /\ has_constants_pkl p = true) /\
  (is_torch_zip p = true -> has_data_pkl p = true -> In "PyTorch v1.3" fs) /\
  (In "PyTorch v0.1.1" fs <-> is_tar p = true /\ legacy_ok p = true) /\
  (In "PyTorch v0.1.10" fs <-> is_valid_pickle p = true) /\
  (In "PyTorch model archive format" fs <-> is_standard_zip p = true /\ mar_ok p = true).
Proof.
  intros p. exists (expected p). split; [apply identify_expected|].
  assert (R : forall f ms, In (f, ms) doc_zip_table ->
            (In f (expected p) <-> is_torch_zip p = true /\ (forall m, In m ms -> marker p m = true) /\
                                   (f = "TorchScript v1.0" -> has_constants_pkl p = true))).
  { intros f ms Hin. rewrite (expected_iff p f (zip_cond p (f, ms))).
    - unfold zip_cond. cbn [fst snd].
      rewrite !andb_true_iff, forallb_forall, orb_true_iff, negb_true_iff, String.eqb_neq.
      destruct (string_dec f "TorchScript v1.0"); tauto.
    - apply in_or_app. left. exact (in_map _ _ _ Hin). }
  (* the three rows of [conds p] after the five documented zip formats *)
  assert (T : forall f c, In (f, c) (skipn 5 (conds p)) -> (In f (expected p) <-> c = true))
    by (intros f c H; apply expected_iff, in_or_app; right; exact H).
  split; [apply expected_ordered|].
  split; [intros f ms Hin Hf; apply (R f ms Hin) in Hf; tauto|].
  split; [intros f ms Hin Hne Htz Hm; apply (R f ms Hin); tauto|].
  split.
  { rewrite (R "TorchScript v1.0" ["model.json"]) by (simpl; auto). split.
    - intros (Z & M & C). exact (conj Z (conj (M "model.json" (or_introl eq_refl)) (C eq_refl))).
    - intros (Z & M & C). split; [exact Z|]. split; [intros m [<-|[]]; exact M|intros _; exact C]. }
  split.
  { intros Z D. apply (R "PyTorch v1.3" ["data.pkl"]); [simpl; auto 6|].
    split; [exact Z|]. split; [intros m [<-|[]]; exact D|discriminate]. }
  split; [rewrite <- andb_true_iff; apply T; simpl; auto|].
  split; [apply T; simpl; auto|].
  rewrite <- andb_true_iff. apply T. simpl. auto.
Qed.

Lemma torch_accepts_data_pkl : forall tz names, torch_accepts tz names = true ->
  tz = true /\ exists n, In n names /\ ends_with "/data.pkl" n = true.
Proof.
  unfold torch_accepts. intros tz names H. apply andb_true_iff in H. destruct H as [A B].
  split; [exact A|]. destruct names as [|n0 r]; [discriminate|].
  destruct (upto_slash n0) as [d|]; [|discriminate].
  apply andb_true_iff in B. destruct B as [_ B]. apply mem_str_In in B. exists (d ++ "/data.pkl"). split; [exact B|].
  apply ends_with_spec. eauto.
Qed.

Lemma has_sub_app : forall s a b, has_sub s (a ++ b) = has_sub s a || has_sub s b.
Proof. intros. apply existsb_app. Qed.

Lemma zip_formats_ext : forall p q conds,
  (forall k, prop_key p k = prop_key q k) -> zip_formats p conds = zip_formats q conds.
Proof.
  intros p q conds H. induction conds as [|[keys name] r IH]; simpl; [reflexivity|].
  assert (A : all_keys p keys = all_keys q keys).
  { induction keys as [|k t IHk]; simpl; [reflexivity|]. rewrite H, IHk. reflexivity. }
  rewrite A, IH. reflexivity.
Qed.

Lemma lookup_remove : forall fs p q,
  lookup (remove fs p) q = if String.eqb p q then None else lookup fs q.
Proof. exact alookup_remove. Qed.

Lemma lookup_write : forall fs p n q,
  lookup (write fs p n) q = if String.eqb p q then Some n else lookup fs q.
Proof. exact alookup_write. Qed.

Lemma lookup_write_same : forall fs p n, lookup (write fs p n) p = Some n.
Proof. intros. rewrite lookup_write, String.eqb_refl. reflexivity. Qed.

Lemma lookup_rmtree : forall fs d q,
  lookup (rmtree fs d) q = if in_tree d q then None else lookup fs q.
Proof.
  induction fs as [|[k n] r IH]; intros d q; simpl.
  - destruct (in_tree d q); reflexivity.
  - destruct (in_tree d k) eqn:T; simpl; rewrite IH;
      (destruct (String.eqb_spec k q) as [<-|]; [rewrite T|]; reflexivity).
Qed.

Lemma file_at_lookup : forall f p c, file_at f p = Some c <-> lookup f p = Some (File c).
Proof. unfold file_at. intros f p c. destruct (lookup f p) as [[x|]|]; split; congruence. Qed.

Lemma copy_spec : forall f a b f', copy f a b = Some f' ->
  exists c, lookup f a = Some (File c) /\ f' = write f b (File c).
Proof.
  unfold copy. intros f a b f' H. destruct (lookup f a) as [[c|]|]; try discriminate.
  exists c. destruct (lookup f b) as [[x|]|]; inversion H; auto.
Qed.

Lemma in_tree_temp_sub : forall x, in_tree "temp" ("temp/" ++ x) = true.
Proof.
  intros. unfold in_tree. change ("temp" ++ "/") with "temp/". rewrite prefix_app. apply orb_true_r.
Qed.

Lemma lookup_write_temp : forall f x n q, in_tree "temp" q = false ->
  lookup (write f ("temp/" ++ x) n) q = lookup f q.
Proof.
  intros f x n q H. rewrite lookup_write.
  destruct (String.eqb_spec ("temp/" ++ x) q) as [<-|]; [|reflexivity].
  rewrite in_tree_temp_sub in H. discriminate.
Qed.

Lemma lookup_fold_dirs : forall ds f q, in_tree "temp" q = false ->
  lookup (fold_left (fun f d => write f ("temp/" ++ d) Dir) ds f) q = lookup f q.
Proof.
  induction ds as [|d ds IH]; intros f q H; cbn [fold_left]; [reflexivity|].
  rewrite IH, lookup_write_temp by exact H. reflexivity.
Qed.

Lemma lookup_extract_temp : forall fs name c q, in_tree "temp" q = false ->
  lookup (extract_temp fs name c) q = lookup fs q.
Proof.
  intros fs name c q H. unfold extract_temp. cbv zeta.
  rewrite lookup_write_temp, lookup_fold_dirs, lookup_write by exact H.
  destruct (String.eqb_spec "temp" q) as [<-|]; [discriminate|reflexivity].
Qed.

Lemma forallb_not_in_tree : forall d fs q,
  forallb (fun e : string * node => negb (in_tree d (fst e))) fs = true ->
  in_tree d q = true -> lookup fs q = None.
Proof.
  induction fs as [|[k n] r IH]; intros q H T; simpl in *; [reflexivity|].
  apply andb_true_iff in H. destruct H as [A B].
  destruct (String.eqb_spec k q); [subst; rewrite T in A; discriminate|]. apply IH; assumption.
Qed.

Lemma first_with_In : forall fmt files p, first_with fmt files = Some p -> In p (map fst files).
Proof.
  induction files as [|[q f] r IH]; simpl; intros p H; [discriminate|].
  destruct (f =? fmt); [inversion H|]; auto.
Qed.

Lemma and_then_false : forall r f, and_then r (fun _ => false) f = r.
Proof. destruct r; reflexivity. Qed.

Lemma three_in_two : forall a b c f1 f2 : string, a <> b -> a <> c -> b <> c ->
  mem_str a [f1; f2] && mem_str b [f1; f2] && mem_str c [f1; f2] = false.
Proof.
  intros a b c f1 f2 Hab Hac Hbc.
  destruct (mem_str a [f1; f2]) eqn:A; [|reflexivity].
  destruct (mem_str b [f1; f2]) eqn:B; [|reflexivity].
  destruct (mem_str c [f1; f2]) eqn:C; [|reflexivity].
  apply mem_str_In in A, B, C.
  destruct A as [A|[A|[]]], B as [B|[B|[]]], C as [C|[C|[]]]; congruence.
Qed.

(* any two of the three conditions name three different formats *)
Lemma branches_exclusive : forall f1 f2,
  let fm := [f1; f2] in
  (subset2 F_MAR F_PKL fm && subset2 F_PT13 F_TS14 fm = false) /\
  (subset2 F_MAR F_PKL fm && subset2 F_MAR F_TAR fm = false) /\
  (subset2 F_PT13 F_TS14 fm && subset2 F_MAR F_TAR fm = false).
Proof.
  intros f1 f2 fm. unfold subset2.
  assert (X1 : mem_str F_MAR fm && mem_str F_PKL fm && mem_str F_PT13 fm = false)
    by (apply three_in_two; discriminate).
  assert (X2 : mem_str F_MAR fm && mem_str F_PKL fm && mem_str F_TAR fm = false)
    by (apply three_in_two; discriminate).
  assert (X3 : mem_str F_PT13 fm && mem_str F_TS14 fm && mem_str F_MAR fm = false)
    by (apply three_in_two; discriminate).
  destruct (mem_str F_MAR fm), (mem_str F_PKL fm), (mem_str F_PT13 fm), (mem_str F_TS14 fm),
    (mem_str F_TAR fm); auto; discriminate.
Qed.

Section Frame.
  Variable fs : fsys.

  Definition agree_out (S : list string) (f : fsys) : Prop :=
    forall p, ~ In p S -> lookup f p = lookup fs p.

  Lemma agree_out_refl : forall S, agree_out S fs.
  Proof. intros S p _. reflexivity. Qed.

  Lemma agree_out_mono : forall S S' f, incl S S' -> agree_out S f -> agree_out S' f.
  Proof. intros S S' f HS H p Hp. apply H. intros I. apply Hp, HS, I. Qed.

  Lemma agree_out_write : forall S f p n, agree_out S f -> In p S -> agree_out S (write f p n).
  Proof.
    intros S f p n H Hp q Hq. rewrite lookup_write.
    destruct (String.eqb_spec p q) as [<-|]; [contradiction|]. apply H, Hq.
  Qed.

  (* removing a path that did not exist takes it out of the frame *)
  Lemma agree_out_remove : forall S f p,
    agree_out (p :: S) f -> lookup fs p = None -> agree_out S (remove f p).
  Proof.
    intros S f p H Hp q Hq. rewrite lookup_remove.
    destruct (String.eqb_spec p q) as [<-|]; [symmetry; exact Hp|].
    apply H. intros [I|I]; contradiction.
  Qed.

  (* so does removing a tree that did not exist, whatever g had below it *)
  Lemma agree_out_rmtree : forall S d f g,
    (forall q, in_tree d q = true -> lookup fs q = None) ->
    agree_out S f -> (forall q, in_tree d q = false -> lookup g q = lookup f q) ->
    agree_out S (rmtree g d).
  Proof.
    intros S d f g Hd Hf Hg q Hq. rewrite lookup_rmtree. destruct (in_tree d q) eqn:T.
    - symmetry. apply Hd, T.
    - rewrite Hg by exact T. apply Hf, Hq.
  Qed.
End Frame.

Section Clean.
  Variable ident : content -> res (list string).
  Variable znames : content -> list string.
  Variable fs : fsys.
  Variables first second : string.
  Variable out : option string.
  Hypothesis Hfresh : fresh fs first second out = true.

  Let t1 := temp_name first.
  Let t2 := temp_name second.

  Lemma fresh_parts :
    lookup fs t1 = None /\ lookup fs t2 = None /\
    (forall q, in_tree "temp" q = true -> lookup fs q = None) /\
    (forall n, In n (candidates out) ->
       n <> first /\ n <> second /\ n <> t1 /\ n <> t2 /\ in_tree "temp" n = false).
  Proof.
    pose proof Hfresh as H. unfold fresh in H. fold t1 t2 in H.
    rewrite !andb_true_iff in H. destruct H as [[[H1 H2] Ht] Hc].
    split; [|split; [|split]].
    - destruct (lookup fs t1); [discriminate|reflexivity].
    - destruct (lookup fs t2); [discriminate|reflexivity].
    - intros q Q. apply forallb_not_in_tree with "temp"; assumption.
    - intros n Hn. rewrite forallb_forall in Hc. specialize (Hc n Hn).
      rewrite !andb_true_iff, !negb_true_iff, !String.eqb_neq in Hc. tauto.
  Qed.

  Definition input (c : content) : Prop := file_at fs first = Some c \/ file_at fs second = Some c.

  Definition success (S : list string) (f : fsys) : Prop :=
    exists name c, In name (candidates out) /\ lookup f name = Some (File c) /\
                   polyglot_from input znames c /\ agree_out fs (S ++ [name]) f.

  Definition post (S : list string) (r : outcome * fsys) : Prop :=
    match fst r with
    | Returned true => success S (snd r)
    | _ => agree_out fs S (snd r)
    end.

  Lemma cleanup_frame : forall S f,
    agree_out fs (t1 :: t2 :: S) f -> agree_out fs S (cleanup f first second).
  Proof.
    intros S f H. destruct fresh_parts as (F1 & F2 & _).
    apply agree_out_remove; [apply agree_out_remove|]; assumption.
  Qed.

  Lemma cleanup_post : forall S o f, post (t1 :: t2 :: S) (o, f) -> post S (o, cleanup f first second).
  Proof.
    intros S o f H. destruct o as [[|]|c]; try (apply cleanup_frame; exact H).
    destruct H as (name & c & Hc & L & P & A). exists name, c.
    split; [exact Hc|]. split; [|split; [exact P|apply cleanup_frame; exact A]].
    destruct fresh_parts as (_ & _ & _ & Hcand). destruct (Hcand name Hc) as (_ & _ & N1 & N2 & _).
    cbn [snd]. unfold cleanup. fold t1 t2. rewrite !lookup_remove.
    destruct (String.eqb_spec t2 name); [congruence|]. destruct (String.eqb_spec t1 name); [congruence|].
    exact L.
  Qed.

  Definition inv (s : st) : Prop :=
    agree_out fs [t1; t2] (s_fs s) /\ map fst (s_files s) = [t1; t2] /\
    (forall p c, In p [t1; t2] -> file_at (s_fs s) p = Some c -> input c) /\
    s_name s = out.

  Definition branch_post (r : step) : Prop :=
    post [t1; t2] match r with
                  | Go s => (Returned (s_found s), s_fs s)
                  | Stop c f => (Raised c, f)
                  end.

  Lemma name_or_cand : forall d, In d ["polyglot.mar.pt"; "polyglot.pt"; "polyglot.mar.tar"] ->
    In (name_or out d) (candidates out).
  Proof. intros d H. destruct out; simpl; auto. Qed.

  (* append_file(src, dst); shutil.copy(dst, name) on two working copies *)
  Lemma append_copy : forall f src dst name files,
    agree_out fs [t1; t2] f ->
    (forall p c, In p [t1; t2] -> file_at f p = Some c -> input c) ->
    In src [t1; t2] -> In dst [t1; t2] -> In name (candidates out) ->
    branch_post match append_file f src dst with
                | Some f1 => match copy f1 dst name with
                             | Some f2 => Go (mkSt f2 files (Some name) true)
                             | None => Stop Unmodelled f1
                             end
                | None => Stop Unmodelled f
                end.
  Proof.
    intros f src dst name files Ha Hk Hs Hd Hn. unfold append_file.
    destruct (file_at f src) as [cs|] eqn:Es; [|exact Ha].
    destruct (file_at f dst) as [cd|] eqn:Ed; [|exact Ha].
    assert (A1 := agree_out_write fs _ f dst (File (Cat cd cs)) Ha Hd).
    destruct (copy _ dst name) as [f2|] eqn:C; [|exact A1].
    apply copy_spec in C. destruct C as (c & L & ->). rewrite lookup_write_same in L. injection L as <-.
    exists name, (Cat cd cs). split; [exact Hn|]. split; [apply lookup_write_same|]. split.
    - exists cd, cs. split; [exact (Hk dst cd Hd Ed)|]. split; [exact (Hk src cs Hs Es)|]. left. reflexivity.
    - apply agree_out_write; [|simpl; auto].
      apply agree_out_mono with [t1; t2]; [apply incl_appl, incl_refl|exact A1].
  Qed.

  Lemma mar_pickle_post : forall s, inv s -> branch_post (mar_pickle s).
  Proof.
    intros [f files name found] (Ha & Hf & Hk & Hn). simpl in Ha, Hf, Hk, Hn. subst name.
    destruct files as [|[p1 f1] [|[p2 f2] [|]]]; try discriminate. injection Hf as -> ->.
    assert (Hc : In (name_or out "polyglot.mar.pt") (candidates out))
      by (apply name_or_cand; simpl; auto).
    unfold mar_pickle. simpl.
    destruct (f1 =? F_MAR), (f2 =? F_MAR); simpl; apply append_copy; simpl; auto.
  Qed.

  Lemma mar_tar_post : forall s, inv s -> branch_post (mar_tar s).
  Proof.
    intros s (Ha & Hf & Hk & Hn). unfold mar_tar.
    destruct (first_with F_MAR (s_files s)) as [mar|] eqn:E1; [|exact Ha].
    destruct (first_with F_TAR (s_files s)) as [tar|] eqn:E2; [|exact Ha].
    apply first_with_In in E1, E2. rewrite Hf in E1, E2.
    apply append_copy; try assumption. rewrite Hn. apply name_or_cand. simpl. auto.
  Qed.

  Lemma std_torchscript_post : forall s, inv s -> branch_post (std_torchscript znames s).
  Proof.
    intros s (Ha & Hf & Hk & Hn). unfold std_torchscript.
    destruct fresh_parts as (_ & _ & Htemp & Hcand).
    destruct (first_with F_PT13 (s_files s)) as [std|] eqn:E1; [|exact Ha].
    destruct (first_with F_TS14 (s_files s)) as [ts|] eqn:E2; [|exact Ha].
    apply first_with_In in E1, E2. rewrite Hf in E1, E2.
    destruct (file_at (s_fs s) std) as [cstd|] eqn:F1; [|exact Ha].
    destruct (file_at (s_fs s) ts) as [cts|] eqn:F2; [|exact Ha].
    destruct (find (ends_with "constants.pkl") (znames cts)) as [cp|] eqn:Fc; [|exact Ha].
    destruct (find (ends_with "version") (znames cts)) as [vp|] eqn:Fv; [|exact Ha].
    destruct (sane_member cp && sane_member vp); [|exact Ha].
    set (name := name_or (s_name s) "polyglot.pt").
    assert (Hc : In name (candidates out))
      by (unfold name; rewrite Hn; apply name_or_cand; simpl; auto).
    destruct (Hcand name Hc) as (_ & _ & _ & _ & NT).
    set (fs2 := extract_temp (extract_temp (s_fs s) cp (Member cts cp)) vp (Member cts vp)).
    assert (A2 : forall q, in_tree "temp" q = false -> lookup fs2 q = lookup (s_fs s) q).
    { intros q Q. unfold fs2. rewrite !lookup_extract_temp by exact Q. reflexivity. }
    destruct (copy fs2 std name) as [fs3|] eqn:C; [|exact (agree_out_rmtree fs _ _ _ _ Htemp Ha A2)].
    apply copy_spec in C. destruct C as (c & L & ->).
    rewrite A2, (proj1 (file_at_lookup _ _ _) F1) in L by (destruct E1 as [<-|[<-|[]]]; reflexivity).
    injection L as <-.
    set (z := ZipAdd cstd [("constants.pkl", Member cts cp); ("version", Member cts vp)]).
    exists name, z. split; [exact Hc|]. split; [|split].
    - cbn [snd s_fs]. rewrite lookup_rmtree, NT. apply lookup_write_same.
    - exists cstd, cts. split; [exact (Hk std cstd E1 F1)|]. split; [exact (Hk ts cts E2 F2)|].
      right. exists cp, vp. apply find_some in Fc, Fv. tauto.
    - (* the same two writes on the state before extraction *)
      apply agree_out_rmtree with (f := write (write (s_fs s) name (File cstd)) name (File z)).
      + exact Htemp.
      + apply agree_out_write; [apply agree_out_write|]; [|simpl; auto..].
        apply agree_out_mono with [t1; t2]; [apply incl_appl, incl_refl|exact Ha].
      + intros q Q. rewrite !lookup_write. destruct (name =? q); [reflexivity|exact (A2 q Q)].
  Qed.

  Theorem body_post : post [t1; t2] (body ident znames fs first second out).
  Proof.
    destruct fresh_parts as (F1 & F2 & _).
    unfold body. fold t1 t2.
    destruct (copy fs first t1) as [fs1|] eqn:C1; [|apply agree_out_refl].
    apply copy_spec in C1. destruct C1 as (c1 & L1 & ->).
    assert (A1 : agree_out fs [t1; t2] (write fs t1 (File c1)))
      by (apply agree_out_write; [apply agree_out_refl|simpl; auto]).
    destruct (copy _ second t2) as [fs2|] eqn:C2; [|exact A1].
    apply copy_spec in C2. destruct C2 as (c2 & L2 & ->).
    set (fs2 := write (write fs t1 (File c1)) t2 (File c2)).
    assert (A2 : agree_out fs [t1; t2] fs2) by (apply agree_out_write; [exact A1|simpl; auto]).
    assert (K1 : input c1) by (left; apply file_at_lookup, L1).
    assert (K2 : input c2).
    { rewrite lookup_write in L2. destruct (t1 =? second).
      - injection L2 as <-. exact K1.
      - right. apply file_at_lookup, L2. }
    assert (KK : forall p c, In p [t1; t2] -> file_at fs2 p = Some c -> input c).
    { intros p c Hp Hf. unfold file_at, fs2 in Hf. rewrite !lookup_write in Hf.
      destruct (t2 =? p); [injection Hf as <-; exact K2|].
      destruct (t1 =? p); [injection Hf as <-; exact K1|].
      destruct Hp as [<-|[<-|[]]]; [rewrite F1 in Hf|rewrite F2 in Hf]; discriminate. }
    destruct (file_at fs2 t1) as [d1|]; [|exact A2].
    destruct (file_at fs2 t2) as [d2|]; [|exact A2].
    destruct (ident d1) as [[|f1 l1]|e1]; try exact A2.
    destruct (ident d2) as [[|f2 l2]|e2]; try exact A2.
    set (s0 := mkSt fs2 [(t1, f1); (t2, f2)] out false).
    assert (I0 : inv s0) by exact (conj A2 (conj eq_refl (conj KK eq_refl))).
    change (formats_of s0) with [f1; f2].
    destruct (branches_exclusive f1 f2) as (X12 & X13 & X23).
    destruct (subset2 F_MAR F_PKL [f1; f2]), (subset2 F_PT13 F_TS14 [f1; f2]),
      (subset2 F_MAR F_TAR [f1; f2]); try discriminate; rewrite ?and_then_false.
    - exact (mar_pickle_post s0 I0).
    - exact (std_torchscript_post s0 I0).
    - exact (mar_tar_post s0 I0).
    - exact A2.
  Qed.

  Theorem create_polyglot_post : post [] (create_polyglot ident znames fs first second out).
  Proof.
    unfold create_polyglot. pose proof body_post as H.
    destruct (body ident znames fs first second out) as [o f]. apply cleanup_post, H.
  Qed.
End Clean.
