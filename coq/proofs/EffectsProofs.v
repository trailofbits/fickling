(* C01: the call-graph closure of model/Effects.v against the inductive path relation [reachable].
   On any graph a set that [closed] accepts holds every path from its members, and every member of
   the worklist closure lies on a path from an entry; on a graph whose successors are all nodes the
   closure's fuel suffices, so the closure is exactly the reachable set. *)
From Coq Require Import List Bool Arith Lia.
From Verif Require Import Effects.
Import ListNotations.
Local Open Scope nat_scope.

Inductive reachable (g : graph) (a : nat) : nat -> Prop :=
| reach_refl : reachable g a a
| reach_step : forall b c, reachable g a b -> In c (succs g b) -> reachable g a c.

Lemma reachable_trans : forall g a b c, reachable g a b -> reachable g b c -> reachable g a c.
Proof.
  intros g a b c Hab Hbc. induction Hbc.
  - exact Hab.
  - eapply reach_step; eauto.
Qed.

Lemma inb_lt : forall bm n, inb bm n = true -> n < List.length bm.
Proof.
  intros bm n H. destruct (Nat.lt_ge_cases n (List.length bm)) as [L|L]; auto.
  unfold inb in H. rewrite nth_overflow in H; [discriminate | exact L].
Qed.

Lemma members_In : forall bm n, In n (members bm) <-> inb bm n = true.
Proof.
  intros bm n. unfold members. rewrite filter_In, in_seq. split.
  - tauto.
  - intro H. pose proof (inb_lt bm n H). split; [lia | exact H].
Qed.

(* marking a node outside the bitmap marks nothing *)
Lemma inb_setb : forall bm x y,
  inb (setb x bm) y = true <-> y = x /\ x < List.length bm \/ inb bm y = true.
Proof.
  unfold inb. induction bm as [|b r IH]; intros [|x] [|y]; simpl; rewrite ?IH;
    intuition (try discriminate; try lia).
Qed.

Lemma setb_length x : forall bm, List.length (setb x bm) = List.length bm.
Proof. induction x; intros [|b r]; simpl; auto. Qed.

Lemma succs_in_range : forall g b c, In c (succs g b) -> b < List.length g.
Proof.
  intros g b c H. destruct (Nat.lt_ge_cases b (List.length g)) as [L|L]; auto.
  unfold succs in H. rewrite nth_overflow in H; [destruct H | exact L].
Qed.

Lemma closed_iff g X : closed g X = true <->
  forall n m, inb X n = true -> In m (succs g n) -> inb X m = true.
Proof.
  unfold closed. rewrite forallb_forall. split.
  - intros H n m Hn Hm.
    assert (Hin : In n (seq 0 (List.length g))) by (apply in_seq; pose proof (succs_in_range g n m Hm); lia).
    apply H in Hin. rewrite Hn in Hin. simpl in Hin. rewrite forallb_forall in Hin. exact (Hin m Hm).
  - intros H n _. destruct (inb X n) eqn:Hn; [|reflexivity].
    simpl. apply forallb_forall. intros m. apply H, Hn.
Qed.

Theorem closed_sound : forall g X, closed g X = true ->
  forall e, inb X e = true -> forall n, reachable g e n -> inb X n = true.
Proof.
  intros g X HC e He n Hr. rewrite closed_iff in HC. induction Hr; eauto.
Qed.

(* [R] holds of the entries and along edges *)
Lemma closure_go_members : forall g (R : nat -> Prop),
  (forall x y, R x -> In y (succs g x) -> R y) ->
  forall fuel todo seen,
  (forall x, In x todo -> R x) -> (forall x, inb seen x = true -> R x) ->
  forall n, inb (closure_go g fuel todo seen) n = true -> R n.
Proof.
  intros g R Hstep. induction fuel as [|k IH]; intros todo seen Ht Hs n Hn; simpl in Hn.
  - exact (Hs n Hn).
  - destruct todo as [|x r]; [exact (Hs n Hn)|].
    destruct (inb seen x); [apply (IH r seen); auto with datatypes|].
    apply (IH (succs g x ++ r)%list (setb x seen)); [| |exact Hn].
    + intros y Hy. apply in_app_or in Hy. destruct Hy; eauto with datatypes.
    + intros y Hy. apply inb_setb in Hy. destruct Hy as [[-> _]|Hy]; auto with datatypes.
Qed.

Theorem closure_members_reachable : forall g es n,
  inb (reachable_closure g es) n = true -> exists e, In e es /\ reachable g e n.
Proof.
  intros g es n H. unfold reachable_closure in H.
  apply (closure_go_members g (fun x => exists e, In e es /\ reachable g e x)) in H; auto.
  - intros x y [e [He Hr]] Hy. exists e. split; auto. eapply reach_step; eauto.
  - intros x Hx. exists x. split; auto. apply reach_refl.
  - intros x Hx. unfold inb in Hx. rewrite nth_repeat in Hx. discriminate.
Qed.

Corollary members_reachable g es n :
  In n (members (reachable_closure g es)) -> exists e, In e es /\ reachable g e n.
Proof. intros H. apply closure_members_reachable, members_In, H. Qed.

(* On any graph, given the two tests [check_avoid] makes of the computed set: [closed], and the
   entries are in it. *)
Lemma closed_exact g es :
  closed g (reachable_closure g es) = true -> forallb (inb (reachable_closure g es)) es = true ->
  forall n, inb (reachable_closure g es) n = true <-> exists e, In e es /\ reachable g e n.
Proof.
  intros C I n. rewrite forallb_forall in I. split.
  - apply closure_members_reachable.
  - intros (e & He & Hr). exact (closed_sound g _ C e (I e He) n Hr).
Qed.

Definition graph_wf (g : graph) : bool :=
  let n := List.length g in forallb (forallb (fun m => m <? n)) g.

Lemma graph_wf_succs g n m : graph_wf g = true -> In m (succs g n) -> m < List.length g.
Proof.
  unfold graph_wf, succs. rewrite forallb_forall. intros W Hm.
  destruct (nth_in_or_default n g []) as [Hin|E]; [|rewrite E in Hm; destruct Hm].
  specialize (W _ Hin). rewrite forallb_forall in W. apply Nat.ltb_lt, W, Hm.
Qed.

(* what the unmarked nodes can still put on the worklist, plus one step each to mark them *)
Fixpoint weight (g : graph) (seen : list bool) : nat :=
  match g, seen with
  | row :: g', b :: s' => (if b then 0 else S (List.length row)) + weight g' s'
  | _, _ => 0
  end.

Lemma weight_setb : forall g seen x,
  List.length seen = List.length g -> x < List.length g -> inb seen x = false ->
  weight g seen = weight g (setb x seen) + S (List.length (succs g x)).
Proof.
  unfold inb, succs. induction g as [|row g IH]; intros [|b s] [|x] L X H; simpl in *; try lia.
  - subst b. lia.
  - rewrite (IH s x); auto; lia.
Qed.

Lemma weight_init g : weight g (repeat false (List.length g)) = graph_size g.
Proof. induction g as [|row g IH]; simpl; [reflexivity | rewrite IH; reflexivity]. Qed.

Lemma closure_go_nil g fuel seen : closure_go g fuel [] seen = seen.
Proof. destruct fuel; reflexivity. Qed.

(* Invariant: a successor of a marked node is marked or pending. A step on a marked node drops one
   pending item; a step on an unmarked node x trades x and its weight for its successors. *)
Lemma closure_go_complete g : graph_wf g = true ->
  forall fuel todo seen,
  List.length seen = List.length g ->
  (forall x, In x todo -> x < List.length g) ->
  (forall n m, inb seen n = true -> In m (succs g n) -> inb seen m = true \/ In m todo) ->
  weight g seen + List.length todo <= fuel ->
  (forall n, inb seen n = true \/ In n todo -> inb (closure_go g fuel todo seen) n = true) /\
  closed g (closure_go g fuel todo seen) = true.
Proof.
  intros W. induction fuel as [|k IH]; intros [|x r] seen L T I F.
  (* nothing pending: the invariant says [seen] is closed *)
  1, 3: rewrite closure_go_nil; split; [intros n [Hn|[]]; exact Hn|]; apply closed_iff;
    intros n m Hn Hm; destruct (I n m Hn Hm) as [?|[]]; assumption.
  (* pending and no fuel: excluded by the bound *)
  { simpl in F. lia. }
  assert (X : x < List.length g) by auto with datatypes.
  cbn [closure_go]. destruct (inb seen x) eqn:E.
  - destruct (IH r seen L) as [A B]; [auto with datatypes| |simpl in F; lia|].
    + intros n m Hn Hm. destruct (I n m Hn Hm) as [?|[->|?]]; auto.
    + split; [|exact B]. intros n [Hn|[->|Hn]]; auto.
  - destruct (IH (succs g x ++ r)%list (setb x seen)) as [A B].
    + rewrite setb_length. exact L.
    + intros y Hy. apply in_app_or in Hy. destruct Hy; [eapply graph_wf_succs; eauto|auto with datatypes].
    + intros n m Hn Hm. rewrite inb_setb, in_app_iff. apply inb_setb in Hn. destruct Hn as [[-> _]|Hn]; [tauto|].
      destruct (I n m Hn Hm) as [?|[->|?]]; [tauto|left; left; lia|tauto].
    + rewrite app_length. rewrite (weight_setb g seen x L X E) in F. simpl in F. lia.
    + split; [|exact B]. intros n Hn. apply A. rewrite inb_setb, in_app_iff.
      destruct Hn as [?|[->|?]]; [tauto|left; left; lia|tauto].
Qed.

Theorem closure_complete g es :
  graph_wf g = true -> forallb (fun e => e <? List.length g) es = true ->
  closed g (reachable_closure g es) = true /\ forallb (inb (reachable_closure g es)) es = true.
Proof.
  intros W E. rewrite forallb_forall in E.
  destruct (closure_go_complete g W (S (graph_size g + List.length es)) es
              (repeat false (List.length g))) as [A B].
  - apply repeat_length.
  - intros x Hx. apply Nat.ltb_lt, E, Hx.
  - intros n m Hn. unfold inb in Hn. rewrite nth_repeat in Hn. discriminate.
  - rewrite weight_init. lia.
  - split; [exact B|]. apply forallb_forall. intros e He. apply A. right. exact He.
Qed.

(* On a well-formed graph the two tests need not be made: they hold by [closure_complete]. *)
Theorem closure_exact g es :
  graph_wf g = true -> forallb (fun e => e <? List.length g) es = true ->
  forall n, inb (reachable_closure g es) n = true <-> exists e, In e es /\ reachable g e n.
Proof. intros W E. destruct (closure_complete g es W E). apply closed_exact; assumption. Qed.

Lemma eff_eqb_eq : forall a b, eff_eqb a b = true <-> a = b.
Proof. destruct a, b; simpl; split; congruence. Qed.

Lemma mem_eff_In : forall x l, mem_eff x l = true <-> In x l.
Proof.
  intros x l. induction l as [|y r IH]; simpl; [intuition discriminate|].
  rewrite <- IH. destruct (eff_eqb x y) eqn:E.
  - apply eff_eqb_eq in E. subst y. tauto.
  - split; [auto|]. intros [<-|H]; [|exact H]. destruct y; discriminate.
Qed.

Theorem check_avoid_sound : forall g effs es bad, check_avoid g effs es bad = true ->
  forall e, In e es -> forall n, reachable g e n -> ~ In (effect_of effs n) bad.
Proof.
  intros g effs es bad H e He n Hr Hbad. unfold check_avoid in H. rewrite !andb_true_iff in H.
  destruct H as [[C I] A]. rewrite forallb_forall in I, A.
  pose proof (closed_sound g _ C e (I e He) n Hr) as Hn.
  specialize (A n (proj2 (members_In _ n) Hn)). apply mem_eff_In in Hbad. rewrite Hbad in A. discriminate.
Qed.

(* what an instance has left to evaluate *)
Lemma check_avoid_scan g effs es bad :
  graph_wf g = true -> forallb (fun e => e <? List.length g) es = true ->
  check_avoid g effs es bad =
  forallb (fun n => negb (mem_eff (effect_of effs n) bad)) (members (reachable_closure g es)).
Proof.
  intros W E. unfold check_avoid. destruct (closure_complete g es W E) as [-> ->]. reflexivity.
Qed.

Lemma reach_check_complete g e : graph_wf g = true -> e < List.length g -> reach_check g e = true.
Proof.
  intros W L. unfold reach_check. destruct (closure_complete g [e] W) as [-> I].
  - simpl. apply Nat.ltb_lt in L. rewrite L. reflexivity.
  - simpl in I. rewrite andb_true_r in I. exact I.
Qed.

Lemma all_effs_complete : forall c, In c all_effs.
Proof. intro c. destruct c; simpl; tauto. Qed.

Theorem reach_effects_sound : forall g effs e, reach_check g e = true ->
  forall n, reachable g e n -> In (effect_of effs n) (reach_effects g effs e).
Proof.
  intros g effs e H n Hr. unfold reach_check in H. apply andb_prop in H. destruct H as [Hcl He].
  pose proof (closed_sound g _ Hcl e He n Hr) as Hin.
  unfold reach_effects. apply filter_In. split; [apply all_effs_complete|].
  apply existsb_exists. exists n. split; [apply members_In; exact Hin|]. apply eff_eqb_eq. reflexivity.
Qed.

Corollary reach_effects_complete g effs es :
  graph_wf g = true -> forallb (fun e => e <? List.length g) es = true ->
  forall e, In e es -> forall n, reachable g e n -> In (effect_of effs n) (reach_effects g effs e).
Proof.
  intros W E e He. apply reach_effects_sound, reach_check_complete; [exact W|].
  rewrite forallb_forall in E. apply Nat.ltb_lt, E, He.
Qed.

Theorem reach_effects_exact : forall g effs e c, In c (reach_effects g effs e) ->
  exists n, reachable g e n /\ effect_of effs n = c.
Proof.
  intros g effs e c H. unfold reach_effects in H. apply filter_In in H. destruct H as [_ H].
  apply existsb_exists in H. destruct H as [n [Hn Hc]]. apply eff_eqb_eq in Hc.
  destruct (members_reachable g [e] n Hn) as [e' [[<-|[]] Hr]]. eauto.
Qed.

Lemma trace_ok_spec : forall allowed obs, trace_ok allowed obs = true <->
  forall o, In o obs -> In o allowed.
Proof.
  intros allowed obs. unfold trace_ok. rewrite forallb_forall.
  split; intros H o Ho; apply mem_eff_In; auto.
Qed.
