(* C05 layer B: evaluating the decompiled program (PyEval) rebuilds a value observationally equal
   to the reference VM's.  On top of the simulation relation (layer A): an expression that denotes a
   VM value evaluates to a value of the same shape ([eval_denotes]), and the decompiled statements
   execute one by one against the VM's final heap and log ([exec_agrees]), given invariants of both
   runs: the VM's state stays well-formed, plain data logs nothing, opaque objects and fickling's
   variables are numbered in order. *)
From Coq Require Import List String ZArith Bool Lia.
From Verif Require Import Base BaseProofs Ops Interp RefVM StepFacts SimRel SimProofs PyEval.
Import ListNotations.
Local Open Scope nat_scope.
Local Open Scope list_scope.

Lemma forallb2_impl {A B} (f g : A -> B -> bool) :
  (forall a b, f a b = true -> g a b = true) ->
  forall l l', forallb2 f l l' = true -> forallb2 g l l' = true.
Proof.
  intros H. induction l as [|a l IH]; destruct l' as [|b l']; cbn; try congruence.
  intros E. apply andb_true_iff in E. destruct E as [E1 E2].
  rewrite (H _ _ E1), (IH _ E2). reflexivity.
Qed.

Lemma forallb2_app {A B} (f : A -> B -> bool) l1 l1' l2 l2' :
  forallb2 f l1 l1' = true -> forallb2 f l2 l2' = true -> forallb2 f (l1 ++ l2) (l1' ++ l2') = true.
Proof.
  revert l1'. induction l1 as [|a l IH]; destruct l1' as [|b l']; cbn; try congruence.
  intros E F. apply andb_true_iff in E. destruct E as [E1 E2]. rewrite E1. cbn. auto.
Qed.

Lemma const_eqb_refl c : const_eqb c c = true.
Proof.
  destruct c; cbn; auto using Z.eqb_refl, String.eqb_refl. destruct b; reflexivity.
Qed.

Lemma same_shape_mono h1 h2 x : forall n m, n <= m -> forall a b,
  same_shape n h1 h2 a b = true -> same_shape m h1 (h2 ++ x) a b = true.
Proof.
  induction n as [|n IH]; intros m Hle a b H; [discriminate|].
  destruct m as [|m]; [lia|]. apply le_S_n in Hle. specialize (IH m Hle).
  cbn [same_shape] in *.
  destruct a, b; try discriminate; try exact H;
    try (eapply forallb2_impl; [|exact H]; exact IH).
  destruct (nth_error h1 i) as [o1|]; [|discriminate].
  destruct (nth_error h2 i0) as [o2|] eqn:E2; [|destruct o1; discriminate].
  rewrite (nth_error_app1 h2 x), E2
    by (apply nth_error_Some; congruence).
  destruct o1 as [l|l|kvs], o2 as [l'|l'|kvs']; try discriminate;
    try (eapply forallb2_impl; [|exact H]; exact IH).
  eapply forallb2_impl; [|exact H]. intros p q E. cbn beta in E |- *.
  apply andb_true_iff in E. destruct E as [E1 E2']. apply andb_true_iff; split; apply IH; assumption.
Qed.

Lemma same_shape_le n m h1 h2 a b :
  n <= m -> same_shape n h1 h2 a b = true -> same_shape m h1 h2 a b = true.
Proof. intros Hle H. rewrite <- (app_nil_r h2). exact (same_shape_mono _ _ _ _ _ Hle _ _ H). Qed.

Lemma same_shape_ext n h1 h2 x a b :
  same_shape n h1 h2 a b = true -> same_shape n h1 (h2 ++ x) a b = true.
Proof. apply same_shape_mono. apply le_n. Qed.

Lemma forallb2_same_ext n h1 h2 x l l' :
  forallb2 (same_shape n h1 h2) l l' = true -> forallb2 (same_shape n h1 (h2 ++ x)) l l' = true.
Proof. apply forallb2_impl. apply same_shape_ext. Qed.

Lemma forallb2_forallb {A B} (f : A -> B -> bool) (p : A -> bool) (q : B -> bool) :
  (forall a b, f a b = true -> p a = q b) ->
  forall l l', forallb2 f l l' = true -> forallb p l = forallb q l'.
Proof.
  intros H. induction l as [|a l IH]; destruct l' as [|b l']; cbn; try congruence.
  intros E. apply andb_true_iff in E. destruct E as [E1 E2].
  rewrite (H _ _ E1), (IH _ E2). reflexivity.
Qed.

Lemma Forall2_diag {A B} (R : A -> B -> Prop) (f : B -> B -> bool) (g : A -> bool) :
  (forall a b, f b b = true -> R a b -> g a = true) ->
  forall l l', Forall2 R l l' -> forallb2 f l' l' = true -> forallb g l = true.
Proof.
  intros H l l' F. induction F as [|a b l l' Hr F IHF]; cbn; [reflexivity|].
  intros E. apply andb_true_iff in E. destruct E as [E1 E2]. rewrite (H _ _ E1 Hr), (IHF E2). reflexivity.
Qed.

Lemma same_hashable n h1 h2 : forall a b,
  same_shape n h1 h2 a b = true -> hashable a = hashable b.
Proof.
  induction n as [|n IH]; intros a b H; [discriminate|].
  cbn [same_shape] in H. destruct a, b; try discriminate; try reflexivity.
  exact (forallb2_forallb _ _ _ IH _ _ H).
Qed.

Lemma forallb2_hashable n h1 h2 : forall l l',
  forallb2 (same_shape n h1 h2) l l' = true -> forallb hashable l = forallb hashable l'.
Proof. apply forallb2_forallb. apply same_hashable. Qed.

Lemma leaf_same_shape n h1 h2 a b : leaf_same a b = true -> same_shape (S n) h1 h2 a b = true.
Proof. destruct a, b; cbn; congruence. Qed.

Section Core.
Variable P : val -> bool.
Variable al : env.
Variable ns : list node.
Variable h : list hobj.                    (* the VM's FINAL heap *)
Variable imps : list (string * string).
Variable vars : list (nat * val).
Variable bound : nat.
Variable okname : string -> bool.
Hypothesis Hheap : Forall2 (rel_node al) ns h.
Hypothesis Hwf : forallb (obj_wf P) h = true.
Hypothesis Hvars : forall i x, i < bound -> nth_error al i = Some x ->
  exists y, lookup_var i vars = Some y /\ leaf_same x y = true.
Hypothesis Hnames : forall m n, P (VGlobal m n) = true -> okname n = true ->
  leaf_same (VGlobal m n) (lookup_name n imps) = true.

Definition denotes (n : nat) (e : expr) (v : val) : Prop :=
  forall hp, fits n ns bound okname e = true -> rel al e v -> wfv P v = true ->
  exists v' hp', eval ns imps vars n e hp = Ok (v', hp ++ hp') /\
                 same_shape n h (hp ++ hp') v v' = true.

Lemma eval_seq_denotes n :
  (forall e v, denotes n e v) ->
  forall es vs, Forall2 (rel al) es vs -> forall hp,
  forallb (fits n ns bound okname) es = true -> forallb (wfv P) vs = true ->
  exists vs' hp', eval_seq (eval ns imps vars n) es hp = Ok (vs', hp ++ hp') /\
                  forallb2 (same_shape n h (hp ++ hp')) vs vs' = true.
Proof.
  intros IH es vs F. induction F as [|e v es vs Hr F IHF]; intros hp Hf Hw.
  - exists [], []. rewrite app_nil_r. split; reflexivity.
  - cbn in Hf, Hw. apply andb_true_iff in Hf. destruct Hf as [Hf1 Hf2].
    apply andb_true_iff in Hw. destruct Hw as [Hw1 Hw2].
    destruct (IH e v hp Hf1 Hr Hw1) as (v' & hp1 & E1 & S1).
    destruct (IHF (hp ++ hp1) Hf2 Hw2) as (vs' & hp2 & E2 & S2).
    exists (v' :: vs'), (hp1 ++ hp2). cbn [eval_seq]. rewrite E1. cbn [bind]. rewrite E2. cbn [bind].
    rewrite app_assoc. split; [reflexivity|]. cbn [forallb2].
    rewrite <- app_assoc in S2 |- *. rewrite S2, andb_true_r.
    rewrite app_assoc. apply same_shape_ext. exact S1.
Qed.

Lemma eval_pairs_denotes n :
  (forall e v, denotes n e v) ->
  forall es vs, Forall2 (rel_pair al) es vs -> forall hp,
  forallb (fun kv => fits n ns bound okname (fst kv) && fits n ns bound okname (snd kv)) es = true ->
  forallb (fun kv => wfv P (fst kv) && wfv P (snd kv)) vs = true ->
  exists vs' hp', eval_pairs (eval ns imps vars n) es hp = Ok (vs', hp ++ hp') /\
    forallb2 (fun p q => same_shape n h (hp ++ hp') (fst p) (fst q) &&
                         same_shape n h (hp ++ hp') (snd p) (snd q)) vs vs' = true.
Proof.
  intros IH es vs F. induction F as [|[k x] [kv xv] es vs [Hk Hx] F IHF]; intros hp Hf Hw.
  - exists [], []. rewrite app_nil_r. split; reflexivity.
  - cbn in Hk, Hx. cbn [forallb fst snd] in Hf, Hw.
    apply andb_true_iff in Hf. destruct Hf as [Hf1 Hf2]. apply andb_true_iff in Hf1. destruct Hf1 as [Hfk Hfx].
    apply andb_true_iff in Hw. destruct Hw as [Hw1 Hw2]. apply andb_true_iff in Hw1. destruct Hw1 as [Hwk Hwx].
    destruct (IH k kv hp Hfk Hk Hwk) as (k' & hp1 & E1 & S1).
    destruct (IH x xv (hp ++ hp1) Hfx Hx Hwx) as (x' & hp2 & E2 & S2).
    destruct (IHF ((hp ++ hp1) ++ hp2) Hf2 Hw2) as (vs' & hp3 & E3 & S3).
    exists ((k', x') :: vs'), (hp1 ++ hp2 ++ hp3). cbn [eval_pairs]. rewrite E1. cbn [bind].
    rewrite E2. cbn [bind]. rewrite E3. cbn [bind].
    replace (hp ++ hp1 ++ hp2 ++ hp3) with (((hp ++ hp1) ++ hp2) ++ hp3) by (rewrite <- !app_assoc; reflexivity).
    split; [reflexivity|]. cbn [forallb2 fst snd]. rewrite S3, andb_true_r.
    apply andb_true_iff. split.
    + apply same_shape_ext. apply same_shape_ext. exact S1.
    + apply same_shape_ext. exact S2.
Qed.

Lemma pairs_hashable n h2 : forall (l l' : list (val * val)),
  forallb2 (fun p q => same_shape n h h2 (fst p) (fst q) && same_shape n h h2 (snd p) (snd q)) l l' = true ->
  forallb (fun kv => hashable (fst kv)) l = forallb (fun kv => hashable (fst kv)) l'.
Proof.
  apply forallb2_forallb. intros p q E. apply andb_true_iff in E. destruct E as [E _].
  exact (same_hashable _ _ _ _ _ E).
Qed.

Theorem eval_denotes : forall n e v, denotes n e v.
Proof.
  induction n as [|n IH]; intros e v hp Hf Hr Hw; [discriminate|].
  destruct Hr as [c|m nm|es vs F|i|i x Hx|es vs F].
  - exists (VConst c), []. rewrite app_nil_r. cbn. rewrite const_eqb_refl. auto.
  - exists (lookup_name nm imps), []. rewrite app_nil_r. split; [reflexivity|].
    apply leaf_same_shape. apply Hnames; [exact Hw | exact Hf].
  - cbn [fits] in Hf. cbn [wfv] in Hw.
    destruct (eval_seq_denotes n IH es vs F hp Hf Hw) as (vs' & hp' & E & S).
    exists (VTuple vs'), hp'. cbn [eval]. rewrite E. cbn [bind]. split; [reflexivity|]. exact S.
  - cbn [fits] in Hf. cbn [eval].
    destruct (nth_error ns i) as [nd|] eqn:En; [|discriminate].
    destruct (Forall2_lookup _ _ _ _ _ Hheap En) as (o & Eo & Ro).
    pose proof (forallb_nth_error _ _ _ _ Hwf Eo) as Wo.
    destruct Ro as [es vs F|es vs F|kvs kvs' F]; cbn [obj_wf] in Wo.
    + destruct (eval_seq_denotes n IH es vs F hp Hf Wo) as (vs' & hp' & E & S).
      exists (VRef (List.length (hp ++ hp'))), (hp' ++ [HList vs']).
      rewrite E. cbn [bind]. unfold mk_list, alloc_obj. rewrite app_assoc. split; [reflexivity|].
      cbn [same_shape]. rewrite Eo, nth_error_snoc. apply forallb2_same_ext. exact S.
    + apply andb_true_iff in Wo. destruct Wo as [Wh Wo].
      destruct (eval_seq_denotes n IH es vs F hp Hf Wo) as (vs' & hp' & E & S).
      exists (VRef (List.length (hp ++ hp'))), (hp' ++ [HSet vs']).
      rewrite E. cbn [bind]. unfold mk_set, alloc_obj.
      rewrite <- (forallb2_hashable _ _ _ _ _ S), Wh. rewrite app_assoc. split; [reflexivity|].
      cbn [same_shape]. rewrite Eo, nth_error_snoc. apply forallb2_same_ext. exact S.
    + rewrite forallb_andb in Wo. apply andb_true_iff in Wo. destruct Wo as [Wh Wo].
      destruct (eval_pairs_denotes n IH kvs kvs' F hp Hf Wo) as (vs' & hp' & E & S).
      exists (VRef (List.length (hp ++ hp'))), (hp' ++ [HDict vs']).
      rewrite E. cbn [bind]. unfold mk_dict, alloc_obj.
      rewrite <- (pairs_hashable _ _ _ _ S), Wh. rewrite app_assoc. split; [reflexivity|].
      cbn [same_shape]. rewrite Eo, nth_error_snoc.
      eapply forallb2_impl; [|exact S]. cbn. intros p q E'.
      apply andb_true_iff in E'. destruct E' as [E1 E2].
      rewrite (same_shape_ext _ _ _ _ _ _ E1), (same_shape_ext _ _ _ _ _ _ E2). reflexivity.
  - cbn [fits] in Hf. apply Nat.ltb_lt in Hf.
    destruct (Hvars i x Hf Hx) as (y & Ey & Sy).
    exists y, []. rewrite app_nil_r. cbn [eval]. unfold var_value. rewrite Ey. split; [reflexivity|].
    apply leaf_same_shape. exact Sy.
  - cbn [fits frozenset_arg] in Hf. cbn [eval frozenset_arg]. cbn in Hf |- *.
    cbn [wfv] in Hw. apply andb_true_iff in Hw. destruct Hw as [Wh Hw].
    destruct (eval_seq_denotes n IH es vs F hp Hf Hw) as (vs' & hp' & E & S).
    exists (VFrozen vs'), hp'. rewrite E. cbn [bind].
    rewrite <- (forallb2_hashable _ _ _ _ _ S), Wh. split; [reflexivity|]. exact S.
Qed.

End Core.

Lemma forallb_rev {A} (f : A -> bool) l : forallb f (rev l) = forallb f l.
Proof.
  induction l as [|a l IH]; cbn; [reflexivity|].
  rewrite forallb_app, IH. cbn. rewrite andb_true_r. apply andb_comm.
Qed.

Ltac bdestr :=
  repeat match goal with
  | H : _ && _ = true |- _ => apply andb_true_iff in H; destruct H
  end.
Ltac bsplit := repeat (apply andb_true_iff; split).

Ltac use_eqs :=
  repeat match goal with
  | E : cur ?s = _, H : context[cur ?s] |- _ => rewrite E in H
  | E : meta ?s = _, H : context[meta ?s] |- _ => rewrite E in H
  end.

Lemma vpairs_forallb (q : val -> bool) kvs l :
  vpairs_of l = Ok kvs -> forallb q l = true ->
  forallb (fun kv => q (fst kv) && q (snd kv)) kvs = true.
Proof.
  intros H. rewrite (vpairs_of_flat _ _ H). clear H.
  induction kvs as [|kv kvs IH]; cbn; [auto|]. intros W.
  apply andb_true_iff in W. destruct W as [Wk W]. apply andb_true_iff in W. destruct W as [Wv W].
  rewrite Wk, Wv. exact (IH W).
Qed.

Section WF.
Variable P : val -> bool.

Record WF (s : vm) : Prop := mkWF {
  W_cur : forallb (wfv P) (cur s) = true;
  W_meta : forallb (forallb (wfv P)) (meta s) = true;
  W_memo : forallb (fun kv => wfv P (snd kv)) (vmemo s) = true;
  W_heap : forallb (obj_wf P) (heap s) = true;
  W_log : forallb (event_wf P) (log s) = true;
  W_stop : match vstopped s with Some v => wfv P v | None => true end = true
}.

Lemma vm_wf_WF s : vm_wf P s = true <-> WF s.
Proof.
  unfold vm_wf. split.
  - intros H. repeat (apply andb_true_iff in H; destruct H as [H ?]). constructor; assumption.
  - intros [A B C D E F]. rewrite A, B, C, D, E, F. reflexivity.
Qed.

Lemma setitem_events_wf d (kvs : list (val * val)) :
  wfv P d = true -> forallb (fun kv => wfv P (fst kv) && wfv P (snd kv)) kvs = true ->
  forallb (event_wf P) (map (fun kv => EvSetItem d (fst kv) (snd kv)) kvs) = true.
Proof.
  intros D. induction kvs as [|kv r IH]; cbn; [auto|]. intros B.
  apply andb_true_iff in B. destruct B as [B1 B2]. rewrite D, B1. cbn. auto.
Qed.

(* [WF] of a successor state written out: each field is a conjunction of hypotheses once the stack
   equations are in and [forallb] is through [++] and [rev] *)
Ltac wf_fin :=
  constructor; simp_proj;
  repeat match goal with
  | E : cur ?s = _ |- context[cur ?s] => rewrite E
  | E : meta ?s = _ |- context[meta ?s] => rewrite E
  end;
  try (apply forallb_set_nth; [assumption|]);
  rewrite ?forallb_app, ?forallb_rev; cbn [forallb wfv obj_wf event_wf fst snd];
  rewrite ?forallb_app, ?forallb_rev; cbn [forallb wfv obj_wf event_wf fst snd];
  bsplit; try assumption; try reflexivity.

(* the same for the opcodes that write to heap, memo or log; a new leaf is accepted by [HPo] (an
   opaque object) or [HPg] (a global the run resolves) *)
Ltac wf_fin2 HPo HPg :=
  wf_fin; try (apply HPo);
  try (apply HPg; simp_proj; cbn; auto);
  try (rewrite forallb_andb; apply andb_true_iff; split; assumption); try (apply memo_put_forallb; assumption);
  try (apply setitem_events_wf; [cbn [wfv]; try assumption | assumption]).

Lemma wf_step o s s' :
  (data_op o = true \/
   ((forall k, P (VObj k) = true) /\
    (forall m n, In (EvResolve m n) (log s') -> P (VGlobal m n) = true))) ->
  vstep o s = Ok s' -> WF s -> WF s'.
Proof.
  intros HP H [Wc Wm Wme Wh Wl Ws]. apply vstep_sound in H.
  destruct H; unfold called; cbn [fresh_obj valloc snd]; simp_proj.
  all: use_eqs; cbn [forallb wfv] in *; rewrite ?forallb_app, ?forallb_rev in *; bdestr.
  all: try solve [wf_fin].
  all: try (destruct HP as [HP|[HPo HPg]]; [discriminate HP|]).
  all: try match goal with
       | G : nth_error (heap _) _ = Some _ |- _ =>
           pose proof (forallb_nth_error _ _ _ _ Wh G) as Wold; cbn [obj_wf] in Wold; bdestr
       end.
  all: try match goal with
       | G : vpairs_of ?l = Ok ?kvs |- _ =>
           assert (forallb (fun kv => wfv P (fst kv) && wfv P (snd kv)) kvs = true) as Wkv
             by (apply (vpairs_forallb _ kvs l G); rewrite ?forallb_rev; assumption)
       end.
  all: try match goal with
       | G : memo_get _ (vmemo _) = Some _ |- _ => pose proof (memo_get_forallb _ _ _ _ G Wme)
       end.
  all: try match goal with
       | G : rev (cur _) = _ :: _ |- _ =>
           rewrite <- forallb_rev in Wc; rewrite G in Wc; cbn [forallb] in Wc; bdestr
       end.
  all: first [solve [wf_fin2 HPo HPg] | solve [wf_fin2 HP HP] | idtac].
  all: constructor; simp_proj; try assumption;
    try (apply memo_put_forallb; assumption);
    match goal with E : cur _ = _ |- _ => rewrite E end; cbn [forallb]; bsplit; assumption.
Qed.
End WF.

Lemma vstep_log_grows o s s' : vstep o s = Ok s' -> exists ev, log s' = ev ++ log s.
Proof.
  intros H. apply vstep_sound in H.
  destruct H; unfold called; cbn [fresh_obj valloc snd]; simp_proj.
  all: first [exists []; reflexivity | eexists [_]; reflexivity | eexists [_; _]; reflexivity
             | eexists; reflexivity].
Qed.

Lemma vrun_log_incl p s s' : vrun_from p s = Ok s' -> incl (log s) (log s').
Proof.
  intros H. apply (vrun_ind (fun s1 => incl (log s) (log s1)) p s s'); [|exact H|apply incl_refl].
  intros o s1 s2 _ _ H1 _ I1. destruct (vstep_log_grows _ _ _ H1) as (ev & ->). apply incl_appr, I1.
Qed.

Lemma wf_run P : forall p s s',
  (forallb data_op p = true \/
   ((forall k, P (VObj k) = true) /\
    (forall m n, In (EvResolve m n) (log s') -> P (VGlobal m n) = true))) ->
  vrun_from p s = Ok s' -> WF P s -> WF P s'.
Proof.
  intros p s s' HP H. apply (vrun_ind (WF P) p s s'); [|exact H].
  intros o s1 s2 Ho _ H1 (q & Hq) W. eapply wf_step; [|exact H1|exact W].
  destruct HP as [HP|[HPo HPg]]; [left | right; split; [exact HPo|]].
  - rewrite forallb_forall in HP. auto.
  - (* what the step resolves is still in the final log *)
    intros m n Hin. apply HPg. exact (vrun_log_incl _ _ _ Hq _ Hin).
Qed.

Lemma WF_init P : WF P vm_init.
Proof. constructor; reflexivity. Qed.

Lemma data_step_log o s s' :
  data_op o = true -> WF no_standin s -> vstep o s = Ok s' -> log s' = log s.
Proof.
  intros Hd [Wc Wm Wme Wh Wl Ws] H. apply vstep_sound in H.
  destruct H; try discriminate Hd; cbn [valloc snd]; simp_proj; try reflexivity.
  (* SETITEM / SETITEMS on a stand-in: there is none *)
  - rewrite H in Wc. cbn [forallb] in Wc. apply andb_true_iff in Wc. destruct Wc as [_ Wc].
    apply andb_true_iff in Wc. destruct Wc as [_ Wc]. apply andb_true_iff in Wc. destruct Wc as [Wd _].
    destruct d; discriminate.
  - rewrite H in Wm. cbn [forallb] in Wm. apply andb_true_iff in Wm. destruct Wm as [Wd _].
    apply andb_true_iff in Wd. destruct Wd as [Wd _]. destruct d; discriminate.
Qed.

Lemma data_step_body o f f' :
  data_op o = true -> step o f = Ok f' -> ctr f' = ctr f -> stopped f = false ->
  if stopped f' then exists e, body f' = SResult e :: body f else body f' = body f.
Proof.
  intros Hd Hs. apply step_sound in Hs.
  destruct Hs; try discriminate Hd; cbn [new_variable alloc snd]; simp_proj; intros Hc St; rewrite ?St; eauto;
    exfalso; lia.
Qed.

Record DI (f : fk) (v : vm) : Prop := mkDI {
  DI_R : R [] f v;
  DI_wf : WF no_standin v;
  DI_log : log v = [];
  DI_body : match vstopped v with
            | None => body f = []
            | Some _ => exists e, body f = [SResult e]
            end
}.

Lemma DI_step o f v f' v' :
  data_op o = true -> vstopped v = None -> DI f v ->
  step o f = Ok f' -> vstep o v = Ok v' -> DI f' v'.
Proof.
  intros Hd NS [HR HW HL HB] Hs Hv. rewrite NS in HB.
  assert (WF no_standin v') as HW' by (eapply wf_step; [left; exact Hd | exact Hv | exact HW]).
  destruct (lockstep_env _ _ _ _ _ _ NS HR Hs Hv) as [HR' | (x & c & Ec & HR')].
  2: { (* a new variable would name a stand-in on the VM's stack: there is none *)
    exfalso. pose proof (R_env _ _ _ HR') as Hx. inversion Hx as [|? ? Cx _]; subst.
    pose proof (W_cur _ _ HW') as Wc. rewrite Ec in Wc. cbn in Wc. destruct x; discriminate. }
  pose proof (data_step_body _ _ _ Hd Hs) as Hb. rewrite (R_ctr _ _ _ HR'), (R_ctr _ _ _ HR), HB in Hb.
  pose proof (R_stop _ _ _ HR) as St. rewrite NS in St. specialize (Hb eq_refl St).
  constructor.
  - exact HR'.
  - exact HW'.
  - rewrite (data_step_log _ _ _ Hd HW Hv). exact HL.
  - pose proof (R_stop _ _ _ HR') as Rp.
    destruct (vstopped v') as [x|].
    + destruct Rp as [Rp _]. rewrite Rp in Hb. exact Hb.
    + rewrite Rp in Hb. exact Hb.
Qed.

Lemma DI_run : forall p f v f' v',
  forallb data_op p = true -> DI f v ->
  run_from p f = Ok f' -> vrun_from p v = Ok v' -> DI f' v'.
Proof.
  intros p f v f' v' Hd. apply (run2_ind DI p).
  - intros f0 v0 D. exact (R_stopped_agree _ _ _ (DI_R _ _ D)).
  - intros o f0 v0 f1 v1 Ho NS D. rewrite forallb_forall in Hd.
    exact (DI_step o f0 v0 f1 v1 (Hd o Ho) NS D).
Qed.

Section Acyclic.
Variable ns : list node.
Variable h : list hobj.
Variable bound : nat.
Variable okname : string -> bool.
Hypothesis Hokname : forall s, okname s = true.
Hypothesis Hheap : Forall2 (rel_node []) ns h.

Lemma acyclic_fits : forall n e v,
  same_shape n h h v v = true -> rel [] e v -> fits n ns bound okname e = true.
Proof.
  induction n as [|n IH]; intros e v S Hr; [discriminate|].
  pose proof (Forall2_diag _ _ _ IH) as IHl.
  destruct Hr as [c|m nm|es vs F|i|i x Hx|es vs F]; cbn [same_shape] in S.
  - reflexivity.
  - cbn. apply Hokname.
  - cbn [fits]. eauto.
  - cbn [fits]. destruct (nth_error ns i) as [nd|] eqn:En.
    + destruct (Forall2_lookup _ _ _ _ _ Hheap En) as (o & Eo & Ro). rewrite Eo in S.
      destruct Ro as [es vs F|es vs F|kvs kvs' F]; eauto.
      revert S. apply (Forall2_diag (rel_pair [])); [|exact F]. intros [k x] [kv xv] E [Hk Hx]. cbn in *.
      apply andb_true_iff in E. destruct E as [Ek Ex]. rewrite (IH _ _ Ek Hk), (IH _ _ Ex Hx). reflexivity.
    + rewrite (Forall2_lookup_none _ _ _ _ Hheap En) in S. discriminate.
  - destruct i; discriminate.
  - cbn. eauto.
Qed.
End Acyclic.

(* the log (newest first) numbers opaque objects in creation order, up to the VM's counter [n] *)
Fixpoint numbered (l : list event) (n : nat) : Prop :=
  match l with
  | [] => n = 0
  | EvCall _ _ _ k :: r => n = S k /\ numbered r k
  | EvPersLoad _ k :: r => n = S k /\ numbered r k
  | _ :: r => numbered r n
  end.

Lemma numbered_setitems d (kvs : list (val * val)) n : forall l,
  numbered l n -> numbered (rev (map (fun kv => EvSetItem d (fst kv) (snd kv)) kvs) ++ l) n.
Proof.
  induction kvs as [|kv r IH]; intros l H; cbn; [exact H|].
  rewrite <- app_assoc. apply IH. cbn. exact H.
Qed.

Lemma numbered_step o s s' :
  vstep o s = Ok s' -> numbered (log s) (nobj s) -> numbered (log s') (nobj s').
Proof.
  intros H N. apply vstep_sound in H.
  destruct H; unfold called; cbn [fresh_obj valloc snd]; simp_proj; cbn [numbered];
    auto using numbered_setitems.
Qed.

(* the body assigns _var0, _var1, ... in order, each once, up to fickling's counter [c] *)
Fixpoint assigns (b : list stmt) (c : nat) : Prop :=
  match b with
  | [] => c = 0
  | SAssignV i _ :: r => c = S i /\ assigns r i
  | _ :: r => assigns r c
  end.

Lemma assigns_setitems name (kvs : list (expr * expr)) c : forall b,
  assigns b c -> assigns (rev (map (fun kv => SSetItemV name (fst kv) (snd kv)) kvs) ++ b) c.
Proof.
  induction kvs as [|kv r IH]; intros b H; cbn; [exact H|].
  rewrite <- app_assoc. apply IH. cbn. exact H.
Qed.

Lemma assigns_step o f f' :
  step o f = Ok f' -> assigns (body f) (ctr f) -> assigns (body f') (ctr f').
Proof.
  intros H N. apply step_sound in H.
  destruct H; cbn [bind_call new_variable alloc snd]; rewrite ?emit_import_state; simp_proj;
    unfold import_stmts; try destruct (is_builtins _); cbn [assigns app]; auto.
  apply assigns_setitems. cbn [assigns]. auto.
Qed.

Lemma assigns_nassign : forall b c, assigns b c -> nassign b = c.
Proof.
  induction b as [|st r IH]; intros c H; cbn in *; [congruence|].
  destruct st; try (apply IH; exact H). destruct H as [-> H]. rewrite (IH _ H). reflexivity.
Qed.

Definition kw_dict (h : list hobj) (e : event) : bool :=
  match e with
  | EvCall _ _ (Some kw) _ =>
      match kw with
      | VRef i => match nth_error h i with Some (HDict _) => true | _ => false end
      | _ => false
      end
  | _ => true
  end.

Definition dicts_stay (h h' : list hobj) : Prop :=
  forall i kvs, nth_error h i = Some (HDict kvs) -> exists kvs', nth_error h' i = Some (HDict kvs').

Lemma dicts_stay_refl h : dicts_stay h h.
Proof. intros i kvs H. eauto. Qed.

Lemma dicts_stay_app h x : dicts_stay h (h ++ x).
Proof.
  intros i kvs H. exists kvs. rewrite nth_error_app1; [exact H | apply nth_error_Some; congruence].
Qed.

Lemma dicts_stay_set h i o o' :
  nth_error h i = Some o -> (forall kvs, o = HDict kvs -> exists kvs', o' = HDict kvs') ->
  dicts_stay h (set_nth i o' h).
Proof.
  intros Ho K j kvs Hj. assert (i < List.length h) as L by (apply nth_error_Some; congruence).
  rewrite nth_error_set_nth by exact L. destruct (Nat.eqb_spec j i) as [->|N]; [|eauto].
  rewrite Ho in Hj. inversion Hj; subst. destruct (K _ eq_refl) as (kvs' & ->). eauto.
Qed.

Lemma kw_dict_mono h h' e : dicts_stay h h' -> kw_dict h e = true -> kw_dict h' e = true.
Proof.
  intros M. destruct e; cbn; auto. destruct kw as [[| | |i| |]|]; auto.
  destruct (nth_error h i) as [[| |kvs]|] eqn:E; try discriminate.
  destruct (M _ _ E) as (kvs' & ->). auto.
Qed.

Lemma dicts_stay_step o s s' : vstep o s = Ok s' -> dicts_stay (heap s) (heap s').
Proof.
  intros H. apply vstep_sound in H.
  destruct H; unfold called; cbn [fresh_obj valloc snd]; simp_proj.
  all: try apply dicts_stay_refl; try apply dicts_stay_app.
  (* in-place updates keep the kind of the object *)
  all: eapply dicts_stay_set; [eassumption|]; intros kvs0 E0; try discriminate E0; eauto.
Qed.

Lemma kw_step o s s' :
  vstep o s = Ok s' -> forallb (kw_dict (heap s)) (log s) = true ->
  forallb (kw_dict (heap s')) (log s') = true.
Proof.
  intros H K. assert (forallb (kw_dict (heap s')) (log s) = true) as K'.
  { rewrite forallb_forall in *. intros e He. exact (kw_dict_mono _ _ _ (dicts_stay_step _ _ _ H) (K e He)). }
  clear K.
  apply vstep_sound in H.
  destruct H; unfold called in *; cbn [fresh_obj valloc snd] in *; simp_proj;
    cbn [forallb kw_dict]; try exact K'.
  - (* SETITEMS on a stand-in: item assignments carry no keyword dict *)
    rewrite forallb_app. apply andb_true_iff. split; [|exact K'].
    rewrite forallb_forall. intros e He. apply in_rev, in_map_iff in He.
    destruct He as (kv & <- & _). reflexivity.
  - (* NEWOBJ_EX: the keyword argument was checked to be a dict *)
    rewrite H0. exact K'.
Qed.

Lemma run_invariants p f v : run p = Ok f -> vrun p = Ok v ->
  numbered (log v) (nobj v) /\ assigns (body f) (ctr f) /\ forallb (kw_dict (heap v)) (log v) = true.
Proof.
  intros Hs Hv. split; [|split].
  - apply (vrun_ind (fun s => numbered (log s) (nobj s)) p vm_init v); [|exact Hv|reflexivity].
    intros o s1 s2 _ _ H1 _. exact (numbered_step _ _ _ H1).
  - apply (run_ind (fun f => assigns (body f) (ctr f)) p (fk_init 0) f); [|exact Hs|reflexivity].
    intros o s1 s2 _ _ H1. exact (assigns_step _ _ _ H1).
  - apply (vrun_ind (fun s => forallb (kw_dict (heap s)) (log s) = true) p vm_init v); [|exact Hv|reflexivity].
    intros o s1 s2 _ _ H1 _. exact (kw_step _ _ _ H1).
Qed.

(* [al] stays well-formed: a variable a step creates names the value then on top of the VM's stack *)
Lemma run_lockstep_wf P p f v :
  (forall k, P (VObj k) = true) ->
  (forall m n, In (EvResolve m n) (log v) -> P (VGlobal m n) = true) ->
  run p = Ok f -> vrun p = Ok v ->
  exists al, R al f v /\ WF P v /\ Forall (fun y => wfv P y = true) al.
Proof.
  intros HPo HPg Hs Hv.
  refine (loop2_ind stopped step is_stopped vstep
            (fun f v => exists al, R al f v /\ WF P v /\ Forall (fun y => wfv P y = true) al)
            _ p f v _ _ _ _ Hs Hv).
  - intros f0 v0 (al & HR & _). exact (R_stopped_agree _ _ _ HR).
  - intros o f0 v0 f1 v1 _ Sf (al & HR & HW & Hal) S1 V1 (q & _ & Hq).
    assert (WF P v1) as W1.
    { eapply wf_step; [right; split; [exact HPo|] | exact V1 | exact HW].
      intros m n Hin. apply HPg. exact (vrun_log_incl _ _ _ Hq _ Hin). }
    rewrite (R_stopped_agree _ _ _ HR) in Sf.
    destruct (lockstep_env _ _ _ _ _ _ (not_stopped _ Sf) HR S1 V1) as [R1 | (x & c & Ec & R1)].
    + exists al. auto.
    + exists (al ++ [x]). split; [exact R1|]. split; [exact W1|].
      apply Forall_app. split; [exact Hal|]. constructor; [|constructor].
      pose proof (W_cur _ _ W1) as Wc. rewrite Ec in Wc. cbn in Wc.
      apply andb_true_iff in Wc. apply Wc.
  - exists []. split; [exact (R_init 0)|]. split; [apply WF_init | constructor].
Qed.

Lemma assoc_str_Some_mem {A} x (l : list (string * A)) :
  mem_str x (map fst l) = true -> exists v, assoc_str x l = Some v.
Proof. rewrite assoc_str_mem. destruct (assoc_str x l); [eauto | discriminate]. Qed.

Lemma imports_of_body_In nm m : forall b, In (nm, m) (imports_of_body b) <-> In (SImport m nm) b.
Proof.
  induction b as [|st r IH]; cbn; [tauto|].
  destruct st; cbn; rewrite IH; try (split; [auto | intros [H|H]; [discriminate H | exact H]]).
  split; intros [H|H]; auto; inversion H; subst; auto.
Qed.

Lemma resolves_In m nm : forall l, In (EvResolve m nm) l <-> In (m, nm) (resolves l).
Proof.
  induction l as [|e l IH]; cbn; [tauto|].
  destruct e; cbn; rewrite <- IH; try (split; [intros [H|H]; [discriminate H | exact H] | auto]).
  split; intros [H|H]; auto; inversion H; subst; auto.
Qed.

Lemma resolved_in_In L m nm : resolved_in L (VGlobal m nm) = true <-> In (EvResolve m nm) L.
Proof.
  cbn. rewrite existsb_exists, resolves_In. split.
  - intros ([a b] & Hin & E). cbn in E. apply andb_true_iff in E. destruct E as [E1 E2].
    apply String.eqb_eq in E1, E2. subst. exact Hin.
  - intros H. exists (m, nm). cbn. rewrite !String.eqb_refl. auto.
Qed.

Lemma distinct_names_spec L m1 m2 nm :
  distinct_attr_names L = true -> In (EvResolve m1 nm) L -> In (EvResolve m2 nm) L ->
  gnorm m1 = gnorm m2.
Proof.
  unfold distinct_attr_names. intros H A B. apply resolves_In in A, B.
  rewrite forallb_forall in H. specialize (H _ A). rewrite forallb_forall in H. specialize (H _ B).
  cbn in H. rewrite String.eqb_refl in H. cbn in H. apply String.eqb_eq. exact H.
Qed.

Lemma same_event_ext k h1 h2 x a b :
  same_event k h1 h2 a b = true -> same_event k h1 (h2 ++ x) a b = true.
Proof.
  destruct a, b; cbn; try congruence; intros H;
    repeat (apply andb_true_iff in H; destruct H as [H ?]);
    repeat (apply andb_true_iff; split); auto using same_shape_ext, forallb2_same_ext.
  destruct kw, kw0; cbn in *; auto using same_shape_ext.
Qed.

Lemma same_log_ext k h1 h2 x l l' :
  forallb2 (same_event k h1 h2) l l' = true -> forallb2 (same_event k h1 (h2 ++ x)) l l' = true.
Proof. apply forallb2_impl. intros a b. apply same_event_ext. Qed.

Lemma leaf_callable x y : leaf_same x y = true -> callable y = true.
Proof. destruct x, y; cbn; congruence. Qed.

Lemma same_shape_leaf k h1 h2 x y :
  callable x = true -> same_shape k h1 h2 x y = true -> leaf_same x y = true.
Proof. destruct k; [discriminate|]. destruct x, y; cbn; congruence. Qed.

Lemma same_shape_dict k h1 h2 i kvs d :
  nth_error h1 i = Some (HDict kvs) -> same_shape k h1 h2 (VRef i) d = true ->
  exists j kvs', d = VRef j /\ nth_error h2 j = Some (HDict kvs').
Proof.
  intros E H. destruct k; [discriminate|]. cbn [same_shape] in H. destruct d; try discriminate.
  rewrite E in H. destruct (nth_error h2 i0) as [[| |kvs']|] eqn:E2; try discriminate. eauto.
Qed.

Lemma exec_module_app ns k : forall a b s,
  exec_module ns k (a ++ b) s = bind (exec_module ns k a s) (exec_module ns k b).
Proof.
  induction a as [|st a IH]; intros b s; cbn; [reflexivity|].
  destruct (exec_stmt ns k st s); cbn; [apply IH | reflexivity].
Qed.

Lemma eval_args_seq ns imps vars k al : forall es vs, Forall2 (rel al) es vs -> forall hp,
  eval_args ns imps vars k es hp = eval_seq (eval ns imps vars k) es hp.
Proof.
  induction 1 as [|e v es vs Hr F IH]; intros hp; [reflexivity|].
  cbn [eval_seq]. destruct Hr; cbn [eval_args];
    (match goal with |- context[eval ns imps vars k ?e hp] => destruct (eval ns imps vars k e hp) as [[v1 hp1]|] end;
     cbn [bind]; [rewrite IH; reflexivity | reflexivity]).
Qed.

Lemma with_heap_id s : with_heap s (pheap s) = s.
Proof. destruct s; reflexivity. Qed.

Section Calls.
Variable n : nat.
Variable al : env.
Variable ns : list node.
Variable h : list hobj.        (* the VM's final heap *)
Variable L : list event.       (* the VM's final log *)
Variable all : list string.    (* every name the decompiled program imports *)
Variable x : val.              (* the VM's result *)
Let P := resolved_in L.
Hypothesis Hheap : Forall2 (rel_node al) ns h.
Hypothesis Hwf : forallb (obj_wf P) h = true.
Hypothesis Hal : Forall (fun y => callable y = true) al.
Hypothesis Hal_wf : Forall (fun y => wfv P y = true) al.
Hypothesis HD14 : distinct_attr_names L = true.
Hypothesis Hall : forall m nm, In (EvResolve m nm) L -> is_builtins m = false -> mem_str nm all = true.
Hypothesis HwfL : forallb (event_wf P) L = true.
Hypothesis HkwL : forallb (kw_dict h) L = true.

(* what evaluating an expression after the statements b needs of the evaluator's environment *)
Record Ctx (b : list stmt) (imps : list (string * string)) (vars : list (nat * val)) : Prop := mkCtx {
  C_resolved : forall m nm, In (SImport m nm) b -> In (EvResolve m nm) L;
  C_imps : imps = imports_of_body b;
  C_vars : forall i y, i < nassign b -> nth_error al i = Some y ->
           exists y', lookup_var i vars = Some y' /\ leaf_same y y' = true
}.

Lemma names_ok_at b imps vars : Ctx b imps vars ->
  forall m nm, P (VGlobal m nm) = true -> okname_at all imps nm = true ->
  leaf_same (VGlobal m nm) (lookup_name nm imps) = true.
Proof.
  intros [Hr -> _] m nm Hp Hok. apply resolved_in_In in Hp. unfold lookup_name.
  unfold okname_at in Hok. rewrite assoc_str_mem in Hok.
  destruct (assoc_str nm (imports_of_body b)) as [m'|] eqn:E.
  - (* imported: D14 makes the importing module the VM's *)
    apply assoc_str_In, imports_of_body_In, Hr in E.
    unfold leaf_same. rewrite (distinct_names_spec _ _ _ _ HD14 Hp E), !String.eqb_refl. reflexivity.
  - (* never imported: the VM's module is a spelling of builtins *)
    destruct (is_builtins m) eqn:Bm.
    + unfold leaf_same, gnorm. rewrite Bm, !String.eqb_refl. reflexivity.
    + rewrite (Hall _ _ Hp Bm) in Hok. discriminate.
Qed.

Lemma ctx_denotes b imps vars : Ctx b imps vars ->
  forall e v, denotes P al ns h imps vars (nassign b) (okname_at all (imports_of_body b)) n e v.
Proof.
  intros C. pose proof (names_ok_at _ _ _ C) as Hn. destruct C as [_ -> Hv].
  apply eval_denotes; assumption.
Qed.

Lemma peval_denotes b st e v :
  Ctx b (pimports st) (pvars st) ->
  fits n ns (nassign b) (okname_at all (imports_of_body b)) e = true -> rel al e v -> wfv P v = true ->
  exists v' hp', peval ns n e st = Ok (v', with_heap st (pheap st ++ hp')) /\
                 same_shape n h (pheap st ++ hp') v v' = true.
Proof.
  intros C Hf Hr Hw. destruct (ctx_denotes _ _ _ C e v (pheap st) Hf Hr Hw) as (v' & hp' & E & S).
  exists v', hp'. unfold peval. rewrite E. split; [reflexivity | exact S].
Qed.

Definition eval_kw (kw : option expr) (s2 : pst) : res (option val * pst) :=
  match kw with
  | None => Ok (None, s2)
  | Some k =>
      do '(d, s3) <- peval ns n k s2;
      match d with
      | VRef i => match nth_error (pheap s3) i with
                  | Some (HDict _) => Ok (Some d, s3)
                  | _ => Err EType
                  end
      | _ => Err EType
      end
  end.

Lemma pkw_denotes b st kw kw' f0 args0 k0 :
  Ctx b (pimports st) (pvars st) ->
  match kw with
  | Some k => fits n ns (nassign b) (okname_at all (imports_of_body b)) k
  | None => true
  end = true ->
  rel_opt al kw kw' ->
  match kw' with Some y => wfv P y | None => true end = true ->
  kw_dict h (EvCall f0 args0 kw' k0) = true ->
  exists kwd hp', eval_kw kw st = Ok (kwd, with_heap st (pheap st ++ hp')) /\
                  same_opt n h (pheap st ++ hp') kw' kwd = true.
Proof.
  intros C Hf Hrel Hw Hk. destruct kw as [k|], kw' as [y|]; cbn in Hrel; try contradiction.
  - destruct (peval_denotes b st k y C Hf Hrel Hw) as (d & hp' & E & S).
    cbn [kw_dict] in Hk. destruct y; try discriminate Hk.
    destruct (nth_error h i) as [[| |kvs]|] eqn:Ei; try discriminate Hk.
    destruct (same_shape_dict _ _ _ _ _ _ Ei S) as (j & kvs' & -> & Ej).
    exists (Some (VRef j)), hp'. cbn [eval_kw]. rewrite E. cbn [bind with_heap pheap]. rewrite Ej.
    split; [reflexivity | exact S].
  - exists None, []. cbn [eval_kw]. rewrite app_nil_r, with_heap_id. split; reflexivity.
Qed.

Lemma exec_call_generic f args kw s :
  match f with EAttr _ _ => false | _ => true end = true ->
  exec_call ns n f args kw s =
  (do '(fv, s1) <- peval ns n f s;
   if negb (callable fv) then Err EType else
   do '(avs, hp2) <- eval_args ns (pimports s1) (pvars s1) n args (pheap s1);
   let s2 := with_heap s1 hp2 in
   do '(kwv, s3) <- eval_kw kw s2;
   let '(k, s4) := pfresh s3 in Ok (VObj k, plog_add (EvCall fv avs kwv k) s4)).
Proof. intros H. destruct f; try discriminate H; reflexivity. Qed.

Lemma exec_call_pers pid s :
  imported "UNPICKLER" s = false ->
  exec_call ns n (EAttr (EName "UNPICKLER") "persistent_load") [pid] None s =
  (do '(p, s1) <- peval ns n pid s;
   let '(k, s2) := pfresh s1 in Ok (VObj k, plog_add (EvPersLoad p k) s2)).
Proof.
  intros H. unfold exec_call.
  change (is_pers_load (EAttr (EName "UNPICKLER") "persistent_load")) with true.
  cbn iota. rewrite H. reflexivity.
Qed.

Lemma exec_call_setstate i st0 s :
  exec_call ns n (EAttr (EVar i) "__setstate__") [st0] None s =
  (do '(o, s1) <- peval ns n (EVar i) s;
   if negb (callable o) then Err EUnmodelled else
   do '(sv, s2) <- peval ns n st0 s1; Ok (VConst CNone, plog_add (EvSetState o sv) s2)).
Proof.
  unfold exec_call. cbn [is_pers_load]. cbn iota.
  destruct (peval ns n (EVar i) s) as [[o s1]|]; cbn [bind]; [|reflexivity].
  destruct (negb (callable o)); [reflexivity|].
  change ("__setstate__" =? "__setstate__")%string with true. cbn iota. reflexivity.
Qed.

(* the [fits] premise only says that the fuel is not 0 *)
Lemma var_ready b st i obj bd ok e :
  Ctx b (pimports st) (pvars st) -> Nat.ltb i (nassign b) = true -> nth_error al i = Some obj ->
  fits n ns bd ok e = true ->
  let y := var_value i (pvars st) in
  peval ns n (EVar i) st = Ok (y, st) /\ callable y = true /\
  forall hp, same_shape n h hp obj y = true.
Proof.
  intros C Hlt Hi Hn. apply Nat.ltb_lt in Hlt. destruct (C_vars _ _ _ C i obj Hlt Hi) as (y & Ey & Sy).
  unfold var_value. rewrite Ey. destruct n; [discriminate Hn|]. split; [|split].
  - unfold peval. cbn [eval bind]. unfold var_value. rewrite Ey, with_heap_id. reflexivity.
  - exact (leaf_callable _ _ Sy).
  - intros hp. apply leaf_same_shape. exact Sy.
Qed.

Lemma Ctx_cons s b imps vars :
  match s with SImport _ _ | SAssignV _ _ => False | _ => True end ->
  Ctx b imps vars -> Ctx (s :: b) imps vars.
Proof.
  intros Hs [Hr Hi Hv]. destruct s; try contradiction; constructor; auto;
    intros m nm [E|Hin]; auto; discriminate E.
Qed.

Lemma Ctx_bind e y y' b imps vars :
  nth_error al (nassign b) = Some y -> leaf_same y y' = true ->
  Ctx b imps vars -> Ctx (SAssignV (nassign b) e :: b) imps ((nassign b, y') :: vars).
Proof.
  intros Hy Sy [Hr Hi Hv]. constructor; auto.
  - intros m nm [E|Hin]; [discriminate E | auto].
  - intros j z Hj Hz. cbn [lookup_var nassign] in *. destruct (Nat.eqb_spec j (nassign b)) as [->|Ne].
    + rewrite Hy in Hz. injection Hz as <-. eauto.
    + apply Hv; [lia | exact Hz].
Qed.

(* the evaluator's state after the statements b, which the VM's events l stand for *)
Record Inv (b : list stmt) (l : list event) (st : pst) : Prop := mkInv {
  I_ctx : Ctx b (pimports st) (pvars st);
  I_log : forallb2 (same_event n h (pheap st)) (filter visible_event l) (plog st) = true;
  I_nobj : forall K, numbered l K -> pnobj st = K;
  I_res : match b with
          | SResult _ :: _ => exists r, presult st = Some r /\ same_shape n h (pheap st) x r = true
          | _ => True
          end
}.

Lemma ev_wf ev : In ev L -> event_wf P ev = true.
Proof. revert ev. apply forallb_forall. exact HwfL. Qed.

Lemma exec_import b l st m nm :
  Inv b l st -> is_builtins m = false -> In (EvResolve m nm) L ->
  stmt_fits n ns (nassign b) all (imports_of_body b) (SImport m nm) = true ->
  exists st', exec_stmt ns n (SImport m nm) st = Ok st' /\
              Inv (SImport m nm :: b) (EvResolve m nm :: l) st'.
Proof.
  intros [[Hr Hi Hv] Il In_ _] Hb Hin Hs. cbn [stmt_fits exec_stmt] in *.
  destruct (prefix_str "_var" nm); [discriminate Hs|]. eexists. split; [reflexivity|].
  constructor; cbn [pheap plog pnobj pvars pimports]; [constructor| | |]; cbn [nassign imports_of_body]; auto.
  - intros m0 nm0 [E|Hin0]; [inversion E; subst; auto | auto].
  - rewrite Hi. reflexivity.
  - cbn [filter visible_event]. rewrite Hb. cbn [negb forallb2 same_event]. rewrite !String.eqb_refl. exact Il.
Qed.

Lemma exec_builtin b l st m nm :
  Inv b l st -> is_builtins m = true -> Inv b (EvResolve m nm :: l) st.
Proof.
  intros [C Il In_ Ir] Hb. constructor; auto. cbn [filter visible_event]. rewrite Hb. exact Il.
Qed.

Lemma exec_assign_call b l st f args kw f' args' kw' k :
  Inv b l st -> In (EvCall f' args' kw' k) L -> numbered l k ->
  rel al f f' -> Forall2 (rel al) args args' -> rel_opt al kw kw' ->
  nth_error al (nassign b) = Some (VObj k) ->
  stmt_fits n ns (nassign b) all (imports_of_body b) (SAssignV (nassign b) (ECall f args kw)) = true ->
  exists st', exec_stmt ns n (SAssignV (nassign b) (ECall f args kw)) st = Ok st' /\
              Inv (SAssignV (nassign b) (ECall f args kw) :: b) (EvCall f' args' kw' k :: l) st'.
Proof.
  intros [C Il In_ _] Hin Hnum Hf Hargs Hkw Hi Hs.
  pose proof (ev_wf _ Hin) as Hev. cbn [event_wf] in Hev.
  apply andb_true_iff in Hev. destruct Hev as [Hev Hwk]. apply andb_true_iff in Hev. destruct Hev as [Hev Hwa].
  apply andb_true_iff in Hev. destruct Hev as [Hcal Hwf'].
  assert (kw_dict h (EvCall f' args' kw' k) = true) as Hkd.
  { revert Hin. apply forallb_forall. exact HkwL. }
  cbn [stmt_fits] in Hs. assert (is_pers_load f = false) as Hpl by (destruct Hf; reflexivity).
  rewrite Hpl in Hs.
  apply andb_true_iff in Hs. destruct Hs as [Hs Hfk]. apply andb_true_iff in Hs. destruct Hs as [Hff Hfa].
  destruct (peval_denotes b st f f' C Hff Hf Hwf') as (fv & hp1 & E1 & S1).
  destruct (eval_seq_denotes _ _ _ _ _ _ _ _ _ (ctx_denotes _ _ _ C) _ _ Hargs (pheap st ++ hp1) Hfa Hwa)
    as (avs & hp2 & E2 & S2).
  rewrite <- (eval_args_seq _ _ _ _ _ _ _ Hargs) in E2.
  destruct (pkw_denotes b (with_heap (with_heap st (pheap st ++ hp1)) ((pheap st ++ hp1) ++ hp2)) kw kw'
              _ _ _ C Hfk Hkw Hwk Hkd) as (kwd & hp3 & E3 & S3).
  rewrite <- (In_ _ Hnum) in *. eexists. split.
  - cbn [exec_stmt]. rewrite exec_call_generic by (destruct Hf; reflexivity).
    rewrite E1. cbn [bind].
    rewrite (leaf_callable _ _ (same_shape_leaf _ _ _ _ _ Hcal S1)). cbn [negb].
    cbn [with_heap pimports pvars pheap]. rewrite E2. cbn [bind].
    cbn [with_heap pimports pvars pheap plog pnobj presult] in E3 |- *. rewrite E3.
    cbn [bind pfresh with_heap pnobj]. reflexivity.
  - constructor; cbn [pbind plog_add pheap plog pnobj pvars pimports with_heap].
    + apply Ctx_bind with (y := VObj (pnobj st)); [exact Hi | apply Nat.eqb_refl | exact C].
    + cbn [filter visible_event forallb2 same_event]. cbn [with_heap pheap] in S3.
      rewrite Nat.eqb_refl, S3, andb_true_r, (forallb2_same_ext _ _ _ _ _ _ S2).
      rewrite (same_shape_ext _ _ _ _ _ _ (same_shape_ext _ _ _ _ _ _ S1)). cbn [andb].
      do 3 apply same_log_ext. exact Il.
    + intros K [-> _]. reflexivity.
    + exact I.
Qed.

Lemma exec_assign_pers b l st pid pid' k :
  Inv b l st -> In (EvPersLoad pid' k) L -> numbered l k ->
  rel al pid pid' -> nth_error al (nassign b) = Some (VObj k) ->
  let s0 := SAssignV (nassign b) (ECall (EAttr (EName "UNPICKLER") "persistent_load") [pid] None) in
  stmt_fits n ns (nassign b) all (imports_of_body b) s0 = true ->
  exists st', exec_stmt ns n s0 st = Ok st' /\ Inv (s0 :: b) (EvPersLoad pid' k :: l) st'.
Proof.
  intros [C Il In_ _] Hin Hnum Hpid Hi s0 Hs. subst s0.
  pose proof (ev_wf _ Hin) as Hev. cbn [event_wf] in Hev.
  cbn [stmt_fits] in Hs.
  change (is_pers_load (EAttr (EName "UNPICKLER") "persistent_load")) with true in Hs. cbn iota in Hs.
  apply andb_true_iff in Hs. destruct Hs as [Hfp Hun]. apply negb_true_iff in Hun.
  destruct (peval_denotes b st pid pid' C Hfp Hpid Hev) as (pv & hp1 & E1 & S1).
  rewrite <- (In_ _ Hnum) in *. eexists. split.
  - cbn [exec_stmt]. rewrite exec_call_pers.
    + rewrite E1. cbn [bind pfresh with_heap pnobj]. reflexivity.
    + unfold imported. rewrite (C_imps _ _ _ C), <- assoc_str_mem. exact Hun.
  - constructor; cbn [pbind plog_add pheap plog pnobj pvars pimports with_heap].
    + apply Ctx_bind with (y := VObj (pnobj st)); [exact Hi | apply Nat.eqb_refl | exact C].
    + cbn [filter visible_event forallb2 same_event]. rewrite Nat.eqb_refl, S1. cbn [andb].
      apply same_log_ext. exact Il.
    + intros K [-> _]. reflexivity.
    + exact I.
Qed.

Lemma exec_setstate b l st i st0 obj st0' :
  Inv b l st -> In (EvSetState obj st0') L -> nth_error al i = Some obj -> rel al st0 st0' ->
  let s0 := SExpr (ECall (EAttr (EVar i) "__setstate__") [st0] None) in
  stmt_fits n ns (nassign b) all (imports_of_body b) s0 = true ->
  exists st', exec_stmt ns n s0 st = Ok st' /\ Inv (s0 :: b) (EvSetState obj st0' :: l) st'.
Proof.
  intros [C Il In_ _] Hin Hi Hst s0 Hs. subst s0.
  pose proof (ev_wf _ Hin) as Hev. cbn [event_wf] in Hev. apply andb_true_iff in Hev. destruct Hev as [_ Hws].
  cbn [stmt_fits] in Hs.
  change ("__setstate__" =? "__setstate__")%string with true in Hs. cbn [andb] in Hs.
  apply andb_true_iff in Hs. destruct Hs as [Hlt Hfs].
  destruct (var_ready b st i obj _ _ _ C Hlt Hi Hfs) as (Ey & Cy & Sy).
  destruct (peval_denotes b st st0 st0' C Hfs Hst Hws) as (sv & hp1 & E1 & S1).
  eexists. split.
  - cbn [exec_stmt frozenset_arg]. rewrite exec_call_setstate, Ey. cbn [bind]. rewrite Cy. cbn [negb].
    rewrite E1. cbn [bind]. reflexivity.
  - constructor; cbn [plog_add pheap plog pnobj pvars pimports with_heap]; auto.
    + apply Ctx_cons; [exact I | exact C].
    + cbn [filter visible_event forallb2 same_event].
      rewrite S1, Sy. cbn [andb]. apply same_log_ext. exact Il.
Qed.

Lemma exec_alias b l st e y :
  Inv b l st -> rel al e y -> nth_error al (nassign b) = Some y ->
  stmt_fits n ns (nassign b) all (imports_of_body b) (SAssignV (nassign b) e) = true ->
  exists st', exec_stmt ns n (SAssignV (nassign b) e) st = Ok st' /\ Inv (SAssignV (nassign b) e :: b) l st'.
Proof.
  intros [C Il In_ _] He Hi Hs.
  pose proof (Forall_nth_error _ _ _ _ Hal Hi) as Cy. pose proof (Forall_nth_error _ _ _ _ Hal_wf Hi) as Wy.
  cbn beta in Cy.
  (* a stand-in is named by a name or a variable: the statement is no call *)
  assert (fits n ns (nassign b) (okname_at all (imports_of_body b)) e = true /\
          exec_stmt ns n (SAssignV (nassign b) e) st =
          (do '(v, s1) <- peval ns n e st; Ok (pbind (nassign b) v s1))) as [Hf ->]
    by (destruct He; try discriminate Cy; (split; [exact Hs | reflexivity])).
  destruct (peval_denotes b st e y C Hf He Wy) as (r0 & hp1 & E1 & S1).
  rewrite E1. eexists. split; [reflexivity|].
  constructor; cbn [pbind pheap plog pnobj pvars pimports with_heap]; auto.
  - apply Ctx_bind with (y := y); [exact Hi | exact (same_shape_leaf _ _ _ _ _ Cy S1) | exact C].
  - apply same_log_ext. exact Il.
Qed.

Lemma exec_setitem b l st i k0 v0 obj k0' v0' :
  Inv b l st -> In (EvSetItem obj k0' v0') L ->
  nth_error al i = Some obj -> rel al k0 k0' -> rel al v0 v0' ->
  stmt_fits n ns (nassign b) all (imports_of_body b) (SSetItemV i k0 v0) = true ->
  exists st', exec_stmt ns n (SSetItemV i k0 v0) st = Ok st' /\
              Inv (SSetItemV i k0 v0 :: b) (EvSetItem obj k0' v0' :: l) st'.
Proof.
  intros [C Il In_ _] Hin Hi Hk Hv Hs.
  pose proof (ev_wf _ Hin) as Hev. cbn [event_wf] in Hev. apply andb_true_iff in Hev. destruct Hev as [_ Hev].
  apply andb_true_iff in Hev. destruct Hev as [Hwk Hwv].
  cbn [stmt_fits] in Hs.
  apply andb_true_iff in Hs. destruct Hs as [Hs Hfv]. apply andb_true_iff in Hs. destruct Hs as [Hlt Hfk].
  destruct (var_ready b st i obj _ _ _ C Hlt Hi Hfk) as (_ & Cy & Sy).
  destruct (peval_denotes b st v0 v0' C Hfv Hv Hwv) as (vv & hp1 & E1 & S1).
  destruct (peval_denotes b (with_heap st (pheap st ++ hp1)) k0 k0' C Hfk Hk Hwk) as (kv & hp2 & E2 & S2).
  eexists. split.
  - cbn [exec_stmt]. rewrite E1. cbn [bind with_heap pvars]. rewrite Cy. cbn [negb]. rewrite E2. reflexivity.
  - constructor; cbn [plog_add pheap plog pnobj pvars pimports with_heap]; auto.
    + apply Ctx_cons; [exact I | exact C].
    + cbn [filter visible_event forallb2 same_event]. cbn [with_heap pheap] in S2.
      rewrite S2, (same_shape_ext _ _ _ _ _ _ S1), Sy. cbn [andb].
      do 2 apply same_log_ext. exact Il.
Qed.

Lemma exec_result b l st e :
  Inv b l st -> rel al e x -> wfv P x = true ->
  stmt_fits n ns (nassign b) all (imports_of_body b) (SResult e) = true ->
  exists st', exec_stmt ns n (SResult e) st = Ok st' /\ Inv (SResult e :: b) l st'.
Proof.
  intros [C Il In_ _] He Wx Hs.
  destruct (peval_denotes b st e x C Hs He Wx) as (r & hp1 & E1 & S1).
  eexists. split; [cbn [exec_stmt]; rewrite E1; reflexivity|].
  constructor; cbn [pheap plog pnobj pvars pimports presult with_heap]; eauto.
  - apply Ctx_cons; [exact I | exact C].
  - apply same_log_ext. exact Il.
Qed.

Lemma exec_snoc b l l' s0 :
  (exists st, exec_module ns n (rev b) pst_init = Ok st /\ Inv b l st) ->
  (forall st, Inv b l st -> exists st', exec_stmt ns n s0 st = Ok st' /\ Inv (s0 :: b) l' st') ->
  exists st', exec_module ns n (rev (s0 :: b)) pst_init = Ok st' /\ Inv (s0 :: b) l' st'.
Proof.
  intros (st & A & HI) K. destruct (K st HI) as (st' & B & HI'). exists st'. split; [|exact HI'].
  cbn [rev]. rewrite exec_module_app, A. cbn [bind exec_module]. rewrite B. reflexivity.
Qed.

(* [assigns] and [numbered] say which variable and which opaque object come next *)
Lemma exec_agrees : forall b l, rel_events al b l ->
  forall c K, assigns b c -> numbered l K -> incl l L -> body_fits n ns all b = true ->
  (forall e, In (SResult e) b -> rel al e x /\ wfv P x = true) ->
  exists st, exec_module ns n (rev b) pst_init = Ok st /\ Inv b l st.
Proof.
  induction 1 as [ | m nm b l Hb Hre IH | m nm b l Hb Hre IH
                 | i f args kw f' args' kw' k b l Hf Hargs Hkw Hi Hre IH
                 | i pid pid' k b l Hpid Hi Hre IH
                 | i st0 obj st0' b l Hi Hst Hre IH
                 | i e y b l He Hi Hre IH
                 | i k0 v0 obj k0' v0' b l Hi Hk Hv Hre IH
                 | e v b l He Hre IH ];
    intros c K Has Hnum Hincl Hfit Hres; cbn [assigns numbered body_fits] in Has, Hnum, Hfit;
    (* the side conditions of the head statement and of the head event, where there is one *)
    try (apply andb_true_iff in Hfit; destruct Hfit as [Hs Hfit]);
    try (apply incl_cons_inv in Hincl; destruct Hincl as [Hin Hincl]).
  - exists pst_init. split; [reflexivity|]. repeat constructor; cbn; try contradiction; [lia | congruence].
  - apply exec_snoc with (l := l); [eapply IH; eauto using in_cons|].
    intros st HI. apply exec_import; assumption.
  - destruct (IH c K Has Hnum Hincl Hfit Hres) as (st & Ex & HI).
    exists st. split; [exact Ex | apply exec_builtin; assumption].
  - destruct Has as [-> Has]. destruct Hnum as [-> Hnum]. rewrite <- (assigns_nassign _ _ Has) in *.
    apply exec_snoc with (l := l); [eapply IH; eauto using in_cons|].
    intros st HI. apply exec_assign_call; assumption.
  - destruct Has as [-> Has]. destruct Hnum as [-> Hnum]. rewrite <- (assigns_nassign _ _ Has) in *.
    apply exec_snoc with (l := l); [eapply IH; eauto using in_cons|].
    intros st HI. apply exec_assign_pers; assumption.
  - apply exec_snoc with (l := l); [eapply IH; eauto using in_cons|].
    intros st HI. apply exec_setstate; assumption.
  - destruct Has as [-> Has]. rewrite <- (assigns_nassign _ _ Has) in *.
    apply exec_snoc with (l := l); [eapply IH; eauto using in_cons|].
    intros st HI. apply exec_alias with (y := y); assumption.
  - apply exec_snoc with (l := l); [eapply IH; eauto using in_cons|].
    intros st HI. apply exec_setitem; assumption.
  - destruct (Hres e (or_introl eq_refl)) as [Hx Wx].
    apply exec_snoc with (l := l); [eapply IH; eauto using in_cons|].
    intros st HI. apply exec_result; assumption.
Qed.

End Calls.

Theorem eval_agrees p n f v x :
  run p = Ok f -> vrun p = Ok v -> vstopped v = Some x ->
  defined_before_use n f = true -> distinct_attr_names (log v) = true ->
  exists st r, py_run n p = Ok st /\ presult st = Some r /\
    same_shape n (heap v) (pheap st) x r = true /\
    forallb2 (same_event n (heap v) (pheap st)) (filter visible_event (log v)) (plog st) = true.
Proof.
  intros Hs Hv Hx Hd HD14.
  set (P := resolved_in (log v)).
  destruct (run_lockstep_wf P p f v (fun k => eq_refl)
              (fun m nm Hin => proj2 (resolved_in_In _ _ _) Hin) Hs Hv) as (al & HR & HW & Halwf).
  pose proof HR as [Rs Rm Rh Re Rc Rv Rp].
  destruct (run_invariants p f v Hs Hv) as (Hnum & Has & Hkw).
  unfold defined_before_use in Hd. apply andb_true_iff in Hd. destruct Hd as [Hfit Hone].
  rewrite Hx in Rp. destruct Rp as (_ & e & b0 & Eb & Hrx).
  pose proof (W_stop _ _ HW) as Wx. rewrite Hx in Wx.
  rewrite Eb in Hone.
  destruct (exec_agrees n al (nodes f) (heap v) (log v) (map fst (imports_of_body (body f))) x)
    with (b := body f) (l := log v) (c := ctr f) (K := nobj v) as (st & Ex & [_ Il _ Ir]);
    auto using incl_refl.
  - exact (W_heap _ _ HW).
  - intros m nm Hin Hb. apply mem_str_In. apply in_map_iff. exists (nm, m). split; [reflexivity|].
    apply imports_of_body_In. exact (events_covered _ _ _ Re _ Hin Hb).
  - exact (W_log _ _ HW).
  - (* the one result statement is the last, and it denotes x *)
    intros e' Hin. rewrite Eb in Hin. destruct Hin as [Hin|Hin].
    + inversion Hin; subst. split; assumption.
    + apply negb_true_iff in Hone. assert (existsb is_result b0 = true) as C.
      { apply existsb_exists. exists (SResult e'). split; [exact Hin | reflexivity]. }
      rewrite C in Hone. discriminate.
  - rewrite Eb in Ir. destruct Ir as (r & Er & Sr).
    exists st, r. unfold py_run. rewrite Hs. cbn [bind]. unfold py_eval_fk. repeat split; auto.
Qed.

(* [eval_agrees] without events; an acyclic result makes the side condition on the body true *)
Theorem plain_data_eval p n f v x :
  forallb data_op p = true -> run p = Ok f -> vrun p = Ok v -> vstopped v = Some x ->
  same_shape n (heap v) (heap v) x x = true ->
  exists st r, py_run n p = Ok st /\ presult st = Some r /\ plog st = [] /\ log v = [] /\
               same_shape n (heap v) (pheap st) x r = true.
Proof.
  intros Hd Hs Hv Hx Hac.
  pose proof (DI_run p _ _ _ _ Hd (mkDI _ _ (R_init 0) (WF_init _) eq_refl eq_refl) Hs Hv) as [HR HW HL HB].
  rewrite Hx in HB. destruct HB as (e & Eb).
  pose proof (R_stop _ _ _ HR) as Rp. rewrite Hx in Rp. destruct Rp as (_ & e' & b & Eb' & Hr).
  rewrite Eb in Eb'. inversion Eb'; subst e' b.
  assert (fits n (nodes f) 0 (okname_at [] []) e = true) as Hf.
  { eapply acyclic_fits; [reflexivity | exact (R_heap _ _ _ HR) | exact Hac | exact Hr]. }
  destruct (eval_agrees p n f v x Hs Hv Hx) as (st & r & E & Er & S & Sl).
  - unfold defined_before_use. rewrite Eb. cbn. rewrite Hf. reflexivity.
  - rewrite HL. reflexivity.
  - rewrite HL in Sl. exists st, r. destruct (plog st); [auto | discriminate Sl].
Qed.
