(* What each analysis reports, and the verdict over the findings: the ground the detection floors (C04)
   and totality (C19) stand on. *)
From Coq Require Import List String Ascii Arith Lia.
From Verif Require Import Base Ops Interp Unparse Severity SeverityProofs AnalysisTable Analysis.
Import ListNotations.
Local Open Scope nat_scope.
Local Open Scope list_scope.

Section Proofs.
Variable crepr : const -> string.
Variable std : string -> bool.

Lemma find_sev_bound name : forall l i k, find_sev name i l = Some k -> i <= k < i + List.length l.
Proof.
  induction l as [|[n v] r IH]; intros i k H; cbn in H; [discriminate|].
  destruct (String.eqb n name).
  - inversion H; subst. cbn. lia.
  - apply IH in H. cbn. lia.
Qed.

Lemma finding_sev_wf f : wf (finding_sev f).
Proof.
  unfold finding_sev, sev_of_name. destruct (find_sev (f_sev f) 0 SevTable.sev_table) eqn:E.
  - apply find_sev_bound in E. unfold wf, nsev. cbn [Nat.add] in E. destruct E as [_ E]. exact E.
  - unfold wf. rewrite nsev_6. lia.
Qed.

Lemma findings_wf fs : Forall wf (map finding_sev fs).
Proof. apply Forall_map, Forall_forall. intros f _. apply finding_sev_wf. Qed.

Lemma verdict_ge fs f : In f fs -> doc_rank (finding_sev f) <= doc_rank (verdict fs).
Proof. intros H. apply severity_upper; [apply findings_wf | apply in_map; exact H]. Qed.

Lemma verdict_wf fs : wf (verdict fs).
Proof. apply severity_wf, findings_wf. Qed.

Lemma rank_LIKELY_UNSAFE : doc_rank (sev_named "LIKELY_UNSAFE") = 3.
Proof. reflexivity. Qed.
Lemma rank_LIKELY_OVERTLY_MALICIOUS : doc_rank (sev_named "LIKELY_OVERTLY_MALICIOUS") = 4.
Proof. reflexivity. Qed.
Lemma rank_OVERTLY_MALICIOUS : doc_rank (sev_named "OVERTLY_MALICIOUS") = 5.
Proof. reflexivity. Qed.

Definition callee_name (fe : expr) : option string :=
  match fe with
  | EName n => Some n
  | EVar j => Some (var_name j)
  | _ => None
  end.

Lemma unparse_call_gen n ns fe args kw :
  unparse_expr crepr (S (S n)) ns (ECall fe args kw) =
  (unparse_expr crepr (S n) ns fe ++
   String "("%char (commas (map (unparse_expr crepr (S n) ns) args ++
                      match kw with Some k => ["**" ++ unparse_expr crepr (S n) ns k] | None => [] end)
     ++ ")"))%string.
Proof. reflexivity. Qed.

Lemma call_text_callee ns fe nm args kw :
  callee_name fe = Some nm ->
  exists rest, call_text crepr ns (ECall fe args kw) = (nm ++ String "("%char rest)%string.
Proof.
  intros H. unfold call_text. change UDEPTH with (S (S 38)). rewrite unparse_call_gen.
  destruct fe; try discriminate; inversion H; subst; eexists; reflexivity.
Qed.

Lemma bad_call_text ns f args kw :
  In f bad_calls -> bad_prefix (shorten (call_text crepr ns (ECall (EName f) args kw))) = true.
Proof.
  intros Hf. destruct (call_text_callee ns (EName f) f args kw eq_refl) as (rest & ->).
  unfold bad_calls in Hf.
  (* long or not, the text starts with the name and its parenthesis *)
  repeat (destruct Hf as [<-|Hf]; [unfold shorten; destruct (32 <? _); cbn; reflexivity |]).
  destruct Hf.
Qed.

Local Opaque unparse_expr shorten.

Definition reports (r : list finding * dedup) (name : string) : Prop :=
  exists f, In f (fst r) /\ f_sev f = name.

Lemma reports_head f fs d : reports (f :: fs, d) (f_sev f).
Proof. exists f. split; [left|]; reflexivity. Qed.

Lemma nonstd_reports_first : forall imps,
  (exists mn, In mn imps /\ std (fst mn) = false) ->
  reports (non_standard_imports std imps []) "LIKELY_UNSAFE".
Proof.
  induction imps as [|mn r IH]; intros (x & Hin & Hx); [destruct Hin|].
  cbn [non_standard_imports]. destruct (std (fst mn)) eqn:S.
  - destruct Hin as [->|Hin]; [congruence|]. apply IH. eauto.
  - unfold add. cbn [mem_str].
    destruct (non_standard_imports std r [shorten (imp_text mn)]) as [fs d']. apply reports_head.
Qed.

Lemma unsafe_ml_reports : forall imps d m n p,
  In (m, n) imps -> In p (dotted_prefixes m) -> mem_str p unsafe_modules = true ->
  reports (unsafe_imports_ml imps d) "LIKELY_OVERTLY_MALICIOUS".
Proof.
  induction imps as [|mn r IH]; intros d m n p Hin Hp Hm; [destruct Hin|].
  cbn [unsafe_imports_ml]. specialize (IH (add (shorten (imp_text mn)) d) m n p).
  destruct (unsafe_imports_ml r _) as [fs d']. cbn [fst] in *.
  destruct Hin as [->|Hin].
  - eexists. split.
    + apply in_or_app. left. apply in_flat_map. exists p. split; [exact Hp|].
      cbv beta. cbn [fst]. rewrite Hm. left. reflexivity.
    + reflexivity.
  - destruct (IH Hin Hp Hm) as (f & Hf & Hs). exists f. split; [|exact Hs].
    apply in_or_app; right. apply in_or_app; right. exact Hf.
Qed.

Lemma bad_calls_reports ns : forall calls d c,
  In c calls -> bad_prefix (shorten (call_text crepr ns c)) = true ->
  reports (bad_calls_an crepr ns calls d) "OVERTLY_MALICIOUS".
Proof.
  induction calls as [|x r IH]; intros d c Hin Hb; [destruct Hin|].
  cbn [bad_calls_an]. destruct (bad_prefix (shorten (call_text crepr ns x))) eqn:Bx.
  - (* whichever call it is, this one reports *)
    destruct (bad_calls_an crepr ns r _) as [fs d']. apply reports_head.
  - destruct Hin as [->|Hin]; [congruence | apply (IH d c); assumption].
Qed.

(* the stages of Analyzer.analyze in the regenerated Analysis.ALL order; each starts from the
   de-duplication set its predecessor left *)
Definition s_imps (s : fk) := imports_of (rev (body s)).
Definition s_calls (s : fk) := flat_map (stmt_calls (nodes s)) (rev (body s)).
Definition s_safe (s : fk) := map snd (filter (fun mn => std (fst mn)) (s_imps s)).
Definition nonstd_stage s := non_standard_imports std (s_imps s) [].
Definition unsafe_ml_stage s := unsafe_imports_ml (s_imps s) (snd (nonstd_stage s)).
Definition bad_calls_stage s := bad_calls_an crepr (nodes s) (s_calls s) (snd (unsafe_ml_stage s)).
Definition overt_stage s :=
  overtly_bad_evals crepr (nodes s) (s_safe s) (filter (fun c => negb (is_setstate_call c)) (s_calls s))
    (snd (bad_calls_stage s)).
Definition unsafe_imports_stage s := unsafe_imports_an (s_imps s) (snd (overt_stage s)).
Definition unused_stage s :=
  unused_variables_an crepr (nodes s) (unused_vars (nodes s) (rev (body s))) (snd (unsafe_imports_stage s)).
Definition ml_stage s := ml_allowlist_an (s_imps s) (snd (unused_stage s)).

Lemma analyze_eq protos s :
  analyze crepr std protos s =
  Some (fst (proto_findings protos) ++ snd (proto_findings protos) ++
        fst (nonstd_stage s) ++ fst (unsafe_ml_stage s) ++ fst (bad_calls_stage s) ++ fst (overt_stage s) ++
        fst (unsafe_imports_stage s) ++ fst (unused_stage s) ++ fst (ml_stage s) ++ []).
Proof.
  unfold ml_stage, unused_stage, unsafe_imports_stage, overt_stage, bad_calls_stage, unsafe_ml_stage,
    nonstd_stage, s_safe, s_calls, s_imps.
  lazy [analyze analysis_order run_all run_analysis String.eqb Ascii.eqb Bool.eqb].
  lazy zeta.
  destruct (non_standard_imports std _ []) as [f3 d3]; cbn [fst snd].
  destruct (unsafe_imports_ml _ d3) as [f4 d4]; cbn [fst snd].
  destruct (bad_calls_an crepr _ _ d4) as [f5 d5]; cbn [fst snd].
  destruct (overtly_bad_evals crepr _ _ _ d5) as [f6 d6]; cbn [fst snd].
  destruct (unsafe_imports_an _ d6) as [f7 d7]; cbn [fst snd].
  destruct (unused_variables_an crepr _ _ d7) as [f8 d8]; cbn [fst snd].
  destruct (ml_allowlist_an _ d8) as [f9 d9]; cbn [fst snd].
  reflexivity.
Qed.

Lemma imps_body s m n : In (m, n) (s_imps s) <-> In (SImport m n) (body s).
Proof.
  rewrite (in_rev (body s)). unfold s_imps, imports_of. rewrite in_flat_map. split.
  - intros (st & Hst & Hx). destruct st; cbn in Hx; try contradiction.
    destruct Hx as [Hx|[]]. injection Hx as -> ->. exact Hst.
  - intros H. exists (SImport m n). split; [exact H | left; reflexivity].
Qed.

Lemma call_in_calls s i f a k : In (SAssignV i (ECall f a k)) (body s) -> In (ECall f a k) (s_calls s).
Proof.
  intros H. apply in_flat_map. exists (SAssignV i (ECall f a k)).
  split; [apply -> in_rev; exact H | left; reflexivity].
Qed.

End Proofs.
