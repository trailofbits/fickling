(* C09: the interpreter and the reference VM both follow the abstract shape machine, hence agree on
   stack depth, mark positions and memo keys after every opcode of every program both accept.  First,
   how [frames_of] reads back as values and marks (also used for the frame lemma of C08). *)
From Coq Require Import List ZArith Lia.
From Verif Require Import Base BaseProofs Interp RefVM Shape.
From Verif Require Export StepFacts.
Import ListNotations.
Local Open Scope nat_scope.

Lemma frames_of_cons st : exists h t, frames_of st = h :: t.
Proof.
  induction st as [|[|e] r IH]; cbn; eauto.
  destruct IH as (h & t & ->). eauto.
Qed.

Lemma frames_of_IE e st h t : frames_of st = h :: t -> frames_of (IE e :: st) = S h :: t.
Proof. intros H; cbn; rewrite H; reflexivity. Qed.

Lemma frames_S st h t : frames_of st = S h :: t -> exists e r, st = IE e :: r /\ frames_of r = h :: t.
Proof.
  destruct st as [|[|e] r]; cbn [frames_of]; try discriminate.
  destruct (frames_of_cons r) as (h' & t' & F). rewrite F. intros H. injection H as <- <-. eauto.
Qed.

Lemma frames_0 st m t : frames_of st = 0 :: m :: t -> exists r, st = IMark :: r /\ frames_of r = m :: t.
Proof.
  destruct st as [|[|e] r]; cbn [frames_of]; try discriminate.
  - intros H. injection H as <-. eauto.
  - destruct (frames_of_cons r) as (h' & t' & F). rewrite F. discriminate.
Qed.

Lemma top_values st : forall k n fs, frames_of st = n :: fs -> k <= n ->
  exists items r, st = (map IE items ++ r)%list /\ List.length items = k.
Proof.
  intros k. revert st. induction k as [|k IH]; intros st n fs F L.
  - exists [], st. auto.
  - destruct n as [|n]; [lia|]. apply frames_S in F. destruct F as (e & r & -> & F).
    destruct (IH r n fs F ltac:(lia)) as (items & r' & -> & L'). exists (e :: items), r'. cbn. auto.
Qed.

Lemma one_value_stack st : frames_of st = [1] -> exists x, st = [IE x].
Proof.
  intros F. apply frames_S in F. destruct F as (e & r & -> & F). exists e.
  destruct r as [|[|y] r]; [reflexivity| |]; cbn [frames_of] in F;
    destruct (frames_of_cons r) as (h & t & F'); rewrite F' in F; discriminate F.
Qed.

Lemma map_fst_remove {A} k (m : list (Z * A)) : map fst (memo_remove k m) = kremove k (map fst m).
Proof.
  induction m as [|[k' v] r IH]; cbn; [reflexivity|].
  destruct (Z.eqb k k'); cbn; rewrite IH; reflexivity.
Qed.

Lemma map_fst_put {A} k (v : A) m : map fst (memo_put k v m) = kput k (map fst m).
Proof. unfold memo_put, kput; cbn. rewrite map_fst_remove. reflexivity. Qed.

Lemma memo_get_kmem {A} k (m : list (Z * A)) v : memo_get k m = Some v -> kmem k (map fst m) = true.
Proof.
  induction m as [|[k' x] r IH]; cbn; [discriminate|].
  destruct (Z.eqb k k'); auto.
Qed.

Definition fshape (s : fk) := (frames_of (stack s), map fst (memo s), stopped s).

Lemma shape_fk_eq s s' : fshape s = fshape s' -> shape_fk s = shape_fk s'.
Proof. unfold fshape, shape_fk. intros H; inversion H; congruence. Qed.

Lemma eat_ok k j h t : k <= h -> eat k j (h :: t) = Some ((h - k + j) :: t).
Proof. intros H; unfold eat. apply Nat.leb_le in H. rewrite H. reflexivity. Qed.

Lemma fshape_emit st s : fshape (emit st s) = fshape s.
Proof. reflexivity. Qed.
Lemma fshape_set_node i n s : fshape (set_node i n s) = fshape s.
Proof. reflexivity. Qed.
Lemma fshape_alloc n s : fshape (snd (alloc n s)) = fshape s.
Proof. reflexivity. Qed.
Lemma fshape_newvar e s : fshape (snd (new_variable e s)) = fshape s.
Proof. reflexivity. Qed.
Lemma fshape_emit_import m n s : fshape (emit_import m n s) = fshape s.
Proof. rewrite emit_import_state. reflexivity. Qed.

Lemma frames_of_values xs r h t :
  frames_of r = h :: t -> frames_of (map IE xs ++ r) = (List.length xs + h) :: t.
Proof.
  intros F. induction xs as [|e xs IH]; [exact F|]. exact (frames_of_IE e _ _ _ IH).
Qed.

Lemma frames_of_slice top r : frames_of (map IE top ++ IMark :: r) = List.length top :: frames_of r.
Proof.
  destruct (frames_of_cons r) as (h & t & F).
  rewrite (frames_of_values top (IMark :: r) 0 (h :: t)) by (cbn; rewrite F; reflexivity).
  rewrite Nat.add_0_r, F. reflexivity.
Qed.

Lemma fk_frames o s s' :
  step_spec o s s' -> sh_frames o (frames_of (stack s)) = Some (frames_of (stack s')).
Proof.
  intros H; destruct H; cbn [sh_frames stack push with_stack set_node alloc bind_call new_variable emit snd];
    rewrite ?emit_import_state; cbn [stack with_stack];
    try match goal with E : stack _ = _ |- _ => rewrite E end; rewrite ?frames_of_slice.
  all: try destruct (frames_of_cons r) as (h & t & F);
       try destruct (frames_of_cons (stack s)) as (h0 & t0 & F0);
       (* POP takes a value or a mark *)
       try match goal with i : item |- _ => destruct i end.
  all: cbn [frames_of]; rewrite ?F, ?F0; unfold eat, close; cbn [Nat.leb Nat.sub andb].
  all: try solve [repeat f_equal; lia].
  - (* DICT: an even number of items *)
    rewrite rev_length in H0. rewrite H0. repeat f_equal; lia.
  - (* OBJ: at least the callee *)
    rewrite <- (rev_length top), H0. cbn. repeat f_equal; lia.
Qed.

Lemma fk_follows_shape o s s' :
  step o s = Ok s' -> sh_step o (shape_fk s) = Some (shape_fk s').
Proof.
  intros H. apply step_sound in H. unfold sh_step, shape_fk. cbn [fr keys halted].
  rewrite (fk_frames _ _ _ H).
  destruct H; cbn [bind_call new_variable]; rewrite ?emit_import_state; simp_proj;
    rewrite ?map_fst_put, ?map_length; try reflexivity.
  (* GET: the key is there *)
  rewrite (memo_get_kmem _ _ _ H). reflexivity.
Qed.

Lemma vpairs_of_even l kvs : vpairs_of l = Ok kvs -> Nat.even (List.length l) = true.
Proof.
  intros H. rewrite (vpairs_of_flat _ _ H). clear H.
  induction kvs as [|kv kvs IH]; [reflexivity | exact IH].
Qed.

Lemma vm_follows_shape o s s' :
  vstep o s = Ok s' -> sh_step o (shape_vm s) = Some (shape_vm s').
Proof.
  intros H. apply vstep_sound in H. unfold sh_step, shape_vm, is_stopped. cbn [fr keys halted].
  destruct H; unfold called; cbn [sh_frames fresh_obj valloc snd]; simp_proj;
    repeat match goal with E : _ = _ :: _ |- _ => rewrite E | E : cur _ = [] |- _ => rewrite E end;
    rewrite ?map_fst_put, ?map_length; cbn [map List.length eat close Nat.leb andb Nat.sub];
    try solve [repeat f_equal; lia].
  - (* DICT: an even number of items *)
    rewrite <- (rev_length (cur s)), (vpairs_of_even _ _ H0). repeat f_equal; lia.
  - (* OBJ: at least the callee *)
    rewrite <- (rev_length (cur s)), H0. cbn. repeat f_equal; lia.
  - (* GET: the key is there *)
    rewrite (memo_get_kmem _ _ _ H). repeat f_equal; lia.
Qed.

Lemma step_agree o s v s' v' :
  shape_fk s = shape_vm v -> step o s = Ok s' -> vstep o v = Ok v' -> shape_fk s' = shape_vm v'.
Proof.
  intros E Hs Hv. apply fk_follows_shape in Hs. apply vm_follows_shape in Hv.
  rewrite E in Hs. rewrite Hs in Hv. congruence.
Qed.

(* over whole programs, at every prefix, from any two states of the same shape *)
Lemma shape_lockstep_from : forall p s v,
  shape_fk s = shape_vm v ->
  forall i s' v',
    nth_error (trace_from p s) i = Some (Ok s') ->
    nth_error (vtrace_from p v) i = Some (Ok v') ->
    shape_fk s' = shape_vm v'.
Proof.
  induction p as [|o r IH]; intros s v E i s' v' Hs Hv.
  - destruct i; discriminate.
  - cbn [trace_from vtrace_from] in Hs, Hv.
    assert (stopped s = is_stopped v) as St.
    { unfold shape_fk, shape_vm in E. inversion E. reflexivity. }
    rewrite <- St in Hv. destruct (stopped s).
    + destruct i; discriminate.
    + destruct (step o s) as [s1|e1] eqn:S1; destruct (vstep o v) as [v1|e2] eqn:V1.
      * pose proof (step_agree _ _ _ _ _ E S1 V1) as E1.
        destruct i as [|i]; cbn in Hs, Hv.
        -- inversion Hs; inversion Hv; subst. exact E1.
        -- eapply IH; eauto.
      * destruct i as [|[|i]]; cbn in Hv; discriminate.
      * destruct i as [|[|i]]; cbn in Hs; discriminate.
      * destruct i as [|[|i]]; cbn in Hs; discriminate.
Qed.
