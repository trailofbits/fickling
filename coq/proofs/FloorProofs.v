(* C04: detection floors, from the reference VM's events to fickling's verdict. *)
From Coq Require Import List String Lia.
From Verif Require Import Base Ops Interp RefVM Severity SeverityProofs AnalysisTable Analysis
  AnalysisProofs SimProofs.
Import ListNotations.
Local Open Scope nat_scope.
Local Open Scope list_scope.

Section Floors.
Variable crepr : const -> string.
Variable std : string -> bool.

Lemma floor_from_stage protos s fs r name k :
  analyze crepr std protos s = Some fs ->
  In r [nonstd_stage std s; unsafe_ml_stage std s; bad_calls_stage crepr std s; overt_stage crepr std s] ->
  reports r name -> doc_rank (sev_named name) = k ->
  k <= doc_rank (verdict fs).
Proof.
  intros HA Hr (f & Hf & <-) <-. rewrite analyze_eq in HA. injection HA as <-.
  apply (verdict_ge _ f).
  destruct Hr as [<-|[<-|[<-|[<-|[]]]]]; repeat (apply in_or_app; first [left; exact Hf | right]).
Qed.

Theorem body_floor_nonstd protos s fs m n :
  analyze crepr std protos s = Some fs ->
  In (SImport m n) (body s) -> std m = false -> 3 <= doc_rank (verdict fs).
Proof.
  intros HA Hin Hs.
  eapply floor_from_stage; [exact HA | left; reflexivity | | exact rank_LIKELY_UNSAFE].
  apply nonstd_reports_first. exists (m, n). split; [apply imps_body; exact Hin | exact Hs].
Qed.

Theorem log_floor_nonstd p first_var s v protos fs m n :
  run_from p (fk_init first_var) = Ok s -> vrun_from p vm_init = Ok v ->
  analyze crepr std protos s = Some fs ->
  In (EvResolve m n) (log v) -> is_builtins m = false -> std m = false ->
  3 <= doc_rank (verdict fs).
Proof.
  intros Hs Hv HA Hin Hb. apply (body_floor_nonstd protos s fs m n HA).
  exact (resolved_is_imported p _ s v m n Hs Hv Hin Hb).
Qed.

Theorem body_floor_dangerous protos s fs m n p :
  analyze crepr std protos s = Some fs ->
  In (SImport m n) (body s) -> In p (dotted_prefixes m) -> mem_str p unsafe_modules = true ->
  4 <= doc_rank (verdict fs).
Proof.
  intros HA Hin Hp Hm.
  eapply floor_from_stage; [exact HA | right; left; reflexivity | | exact rank_LIKELY_OVERTLY_MALICIOUS].
  apply unsafe_ml_reports with m n p; [apply imps_body; exact Hin | exact Hp | exact Hm].
Qed.

Theorem log_floor_dangerous p0 first_var s v protos fs m n p :
  run_from p0 (fk_init first_var) = Ok s -> vrun_from p0 vm_init = Ok v ->
  analyze crepr std protos s = Some fs ->
  In (EvResolve m n) (log v) -> is_builtins m = false ->
  In p (dotted_prefixes m) -> mem_str p unsafe_modules = true ->
  4 <= doc_rank (verdict fs).
Proof.
  intros Hs Hv HA Hin Hb. apply (body_floor_dangerous protos s fs m n p HA).
  exact (resolved_is_imported p0 _ s v m n Hs Hv Hin Hb).
Qed.

Theorem body_floor_bad_call protos s fs i f args kw :
  analyze crepr std protos s = Some fs ->
  In (SAssignV i (ECall (EName f) args kw)) (body s) -> In f bad_calls ->
  doc_rank (verdict fs) = 5.
Proof.
  intros HA Hin Hf.
  pose proof (doc_rank_lt6 _ (verdict_wf fs)) as U.
  assert (5 <= doc_rank (verdict fs)) as L; [|lia].
  eapply floor_from_stage; [exact HA | do 2 right; left; reflexivity | | exact rank_OVERTLY_MALICIOUS].
  unfold bad_calls_stage. (* folded, [apply] takes a second to see a bad_calls_an *)
  apply bad_calls_reports with (ECall (EName f) args kw);
    [apply (call_in_calls _ i); exact Hin | apply bad_call_text; exact Hf].
Qed.

(* second disjunct: fickling may print the callee by a variable it introduced for the global *)
Theorem log_floor_bad_call p first_var s v protos fs b f args kw k :
  run_from p (fk_init first_var) = Ok s -> vrun_from p vm_init = Ok v ->
  analyze crepr std protos s = Some fs ->
  In (EvCall (VGlobal b f) args kw k) (log v) -> In f bad_calls ->
  doc_rank (verdict fs) = 5 \/
  (exists i j es kwe, In (SAssignV i (ECall (EVar j) es kwe)) (body s)).
Proof.
  intros Hs Hv HA Hin Hf. destruct (run_aligned p _ s v Hs Hv) as (al & Re & _).
  destruct (events_covered _ _ _ Re _ Hin) as (i & fe & es & kwe & Hst & Hrel & _).
  inversion Hrel; subst; [left | right; eauto].
  exact (body_floor_bad_call protos s fs i f es kwe HA Hst Hf).
Qed.

End Floors.
