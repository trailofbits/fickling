(* The allowlist heap of model/Allowlist.v (C11) under copy_deep.  The invariant separates the module-level
   table from the instances by position: an instance's cells lie above the heap that existed when it was
   built, and building it leaves that older heap as it was. *)
From Coq Require Import List String Bool Arith Lia.
From Verif Require Import Base BaseProofs MLTable Allowlist.
Import ListNotations.
Local Open Scope list_scope.
Local Open Scope nat_scope.

Lemma fresh_cell (P : nat -> Prop) (o : list (string * nat)) c :
  (forall m c', In (m, c') o -> P c') -> ~ P c -> ~ In c (map snd o).
Proof.
  intros H Hc Hin. apply in_map_iff in Hin. destruct Hin as ([m c'] & <- & Hin). exact (Hc (H m _ Hin)).
Qed.

Lemma gname_eqb_eq : forall a b, gname_eqb a b = true <-> a = b.
Proof.
  intros [a1 a2] [b1 b2]. unfold gname_eqb. cbn [fst snd]. rewrite andb_true_iff, !String.eqb_eq.
  split; [intros [-> ->]; reflexivity | intros H; injection H as -> ->; auto].
Qed.

Lemma mem_g_In : forall g l, mem_g g l = true <-> In g l.
Proof.
  intros g l. induction l as [|x r IH]; cbn [mem_g In]; [split; [discriminate | tauto]|].
  destruct (gname_eqb g x) eqn:E.
  - apply gname_eqb_eq in E. subst x. split; auto.
  - rewrite IH. split; [auto|]. intros [->|H]; [|exact H].
    rewrite (proj2 (gname_eqb_eq g g) eq_refl) in E. discriminate.
Qed.

Definition vdict := list (string * cell).

Definition view (h : heap) (o : odict) : vdict :=
  map (fun mc => (fst mc, cell_at h (snd mc))) o.

Definition vpermits (v : vdict) (g : gname) : bool :=
  match assoc_str (fst g) v with
  | Some c => mem_key (snd g) c
  | None => false
  end.

Fixpoint vupd (v : vdict) (m : string) (f : cell -> cell) : vdict :=
  match v with
  | [] => []
  | (k, c) :: r => if String.eqb m k then (k, f c) :: r else (k, c) :: vupd r m f
  end.

Definition vadd (v : vdict) (g : gname) : vdict :=
  match assoc_str (fst g) v with
  | Some _ => vupd v (fst g) (fun c => dict_set c (snd g) user_msg)
  | None => v ++ [(fst g, [(snd g, user_msg)])]
  end.

Lemma assoc_view h o m :
  assoc_str m (view h o) = option_map (cell_at h) (assoc_str m o).
Proof.
  induction o as [|[k c] r IH]; simpl; [reflexivity|].
  destruct (String.eqb m k); [reflexivity|exact IH].
Qed.

Lemma permits_view h o g : permits h o g = vpermits (view h o) g.
Proof.
  unfold permits, vpermits. rewrite assoc_view. destruct (assoc_str (fst g) o); reflexivity.
Qed.

Lemma mem_key_dict_set c n v x :
  mem_key x (dict_set c n v) = mem_key x c || String.eqb x n.
Proof.
  induction c as [|[k w] r IH]; simpl.
  - destruct (String.eqb x n); reflexivity.
  - destruct (String.eqb n k) eqn:E; simpl.
    + apply String.eqb_eq in E. subst k. destruct (String.eqb x n); simpl; rewrite ?orb_false_r; reflexivity.
    + destruct (String.eqb x k); [reflexivity|exact IH].
Qed.

Lemma assoc_vupd_same v m f :
  assoc_str m (vupd v m f) = option_map f (assoc_str m v).
Proof.
  induction v as [|[k c] r IH]; simpl; [reflexivity|].
  destruct (String.eqb m k) eqn:E; simpl; rewrite E; [reflexivity|exact IH].
Qed.

Lemma assoc_vupd_other v m f x :
  String.eqb x m = false -> assoc_str x (vupd v m f) = assoc_str x v.
Proof.
  intros Hx. induction v as [|[k c] r IH]; simpl; [reflexivity|].
  destruct (String.eqb m k) eqn:E; simpl.
  - apply String.eqb_eq in E. subst k. rewrite Hx. reflexivity.
  - destruct (String.eqb x k); [reflexivity|exact IH].
Qed.

Lemma vpermits_vadd v g x :
  vpermits (vadd v g) x = vpermits v x || gname_eqb x g.
Proof.
  unfold vadd, vpermits, gname_eqb. destruct g as [m n], x as [xm xn]. simpl.
  destruct (assoc_str m v) as [c|] eqn:Em.
  - destruct (String.eqb xm m) eqn:Ex.
    + apply String.eqb_eq in Ex. subst xm. rewrite assoc_vupd_same, Em. simpl.
      apply mem_key_dict_set.
    + rewrite assoc_vupd_other by exact Ex. simpl.
      destruct (assoc_str xm v); [rewrite orb_false_r|]; reflexivity.
  - rewrite assoc_app. destruct (assoc_str xm v) as [d|] eqn:Exm; simpl.
    + destruct (String.eqb xm m) eqn:Ex; [|rewrite orb_false_r; reflexivity].
      apply String.eqb_eq in Ex. subst xm. congruence.
    + destruct (String.eqb xm m); simpl; [|reflexivity].
      destruct (String.eqb xn n); reflexivity.
Qed.

Lemma vpermits_fold adds : forall v x,
  vpermits (fold_left vadd adds v) x = vpermits v x || mem_g x adds.
Proof.
  induction adds as [|g r IH]; intros v x; simpl.
  - rewrite orb_false_r. reflexivity.
  - rewrite IH, vpermits_vadd, <- orb_assoc. destruct (gname_eqb x g); reflexivity.
Qed.

Lemma cell_at_app1 h e c : c < List.length h -> cell_at (h ++ e) c = cell_at h c.
Proof. intros H. unfold cell_at. apply app_nth1. exact H. Qed.

Lemma cell_at_middle h x e : cell_at (h ++ x :: e) (List.length h) = x.
Proof. unfold cell_at. apply nth_middle. Qed.

Lemma heap_upd_length h c f : List.length (heap_upd h c f) = List.length h.
Proof.
  revert c. induction h as [|x r IH]; intros c; simpl; [reflexivity|].
  destruct c; simpl; [reflexivity|]. rewrite IH. reflexivity.
Qed.

Lemma cell_at_upd_same h c f : c < List.length h -> cell_at (heap_upd h c f) c = f (cell_at h c).
Proof.
  revert c. induction h as [|x r IH]; intros c Hc; simpl in *; [lia|].
  destruct c; [reflexivity|]. unfold cell_at in *. simpl. apply IH. lia.
Qed.

Lemma cell_at_upd_other h c f d : d <> c -> cell_at (heap_upd h c f) d = cell_at h d.
Proof.
  revert c d. induction h as [|x r IH]; intros c d Hd; simpl; [reflexivity|].
  destruct c; destruct d; try reflexivity; try lia.
  unfold cell_at in *. simpl. apply IH. lia.
Qed.

Definition cells_below (n : nat) (o : odict) : Prop := forall m c, In (m, c) o -> c < n.

Definition hext (h h' : heap) : Prop := exists e, h' = h ++ e.

Lemma hext_refl h : hext h h.
Proof. exists []. symmetry. apply app_nil_r. Qed.

Lemma hext_trans h1 h2 h3 : hext h1 h2 -> hext h2 h3 -> hext h1 h3.
Proof. intros [e ->] [e' ->]. exists (e ++ e'). symmetry. apply app_assoc. Qed.

Lemma hext_snoc h x : hext h (h ++ [x]).
Proof. exists [x]. reflexivity. Qed.

Lemma hext_length h h' : hext h h' -> List.length h <= List.length h'.
Proof. intros [e ->]. rewrite app_length. lia. Qed.

Lemma hext_upd h0 h c f : hext h0 h -> List.length h0 <= c -> hext h0 (heap_upd h c f).
Proof.
  intros [e ->]. revert c. induction h0 as [|x r IH]; intros c Hc; simpl in *.
  - eexists. reflexivity.
  - destruct c; [lia|]. destruct (IH c) as [e' E]; [lia|]. exists e'. simpl. rewrite E. reflexivity.
Qed.

Lemma hext_cells_below h h' o :
  hext h h' -> cells_below (List.length h) o -> cells_below (List.length h') o.
Proof. intros He Hb m c Hin. apply hext_length in He. specialize (Hb m c Hin). lia. Qed.

Lemma hext_view h h' o : hext h h' -> cells_below (List.length h) o -> view h' o = view h o.
Proof.
  intros [e ->] H. unfold view. apply map_ext_in. intros [m c] Hin. simpl.
  rewrite cell_at_app1; [reflexivity|]. eapply H. exact Hin.
Qed.

Definition wfo (n : nat) (h : heap) (o : odict) : Prop :=
  (forall m c, In (m, c) o -> n <= c < List.length h) /\ NoDup (map snd o).

Definition built (h0 : heap) (ho : heap * odict) (v : vdict) : Prop :=
  hext h0 (fst ho) /\ wfo (List.length h0) (fst ho) (snd ho) /\ view (fst ho) (snd ho) = v.

Lemma deep_copy_spec o : forall h,
  cells_below (List.length h) o -> built h (deep_copy h o) (view h o).
Proof.
  induction o as [|[m c] r IH]; intros h Hb; simpl.
  - split; [apply hext_refl|]. split; [|reflexivity]. split; [intros m c []|constructor].
  - pose proof (hext_snoc h (cell_at h c)) as H1.
    assert (Hr : cells_below (List.length h) r) by (intros m' c' Hin; apply (Hb m' c'); right; exact Hin).
    destruct (IH _ (hext_cells_below _ _ _ H1 Hr)) as ([e He] & [Hc Hd] & Hv).
    destruct (deep_copy (h ++ [cell_at h c]) r) as [h2 o2]. unfold built. simpl in *.
    rewrite app_length in Hc. simpl in Hc. split; [exact (hext_trans _ _ _ H1 (ex_intro _ e He))|]. split.
    + split.
      * intros m' c' [H|H]; [|specialize (Hc m' c' H); lia].
        injection H as _ <-. rewrite He, !app_length. simpl. lia.
      * constructor; [|exact Hd]. apply (fresh_cell _ _ _ Hc). simpl. lia.
    + rewrite Hv, (hext_view _ _ _ H1 Hr), He, <- app_assoc. simpl. rewrite cell_at_middle. reflexivity.
Qed.

Lemma view_upd h o m c f :
  assoc_str m o = Some c -> NoDup (map snd o) -> c < List.length h ->
  view (heap_upd h c f) o = vupd (view h o) m f.
Proof.
  induction o as [|[k d] r IH]; simpl; [discriminate|].
  intros Ha Hn Hc. inversion Hn as [|x l Hnotin Hn']; subst.
  destruct (String.eqb m k) eqn:E.
  - inversion Ha; subst d. f_equal.
    + rewrite cell_at_upd_same by exact Hc. reflexivity.
    + unfold view. apply map_ext_in. intros [m' c'] Hin. simpl.
      rewrite cell_at_upd_other; [reflexivity|]. intros ->. exact (Hnotin (in_map snd _ _ Hin)).
  - f_equal.
    + rewrite cell_at_upd_other; [reflexivity|]. intros ->.
      exact (Hnotin (in_map snd _ _ (assoc_str_In _ _ _ Ha))).
    + apply IH; assumption.
Qed.

Lemma add_one_spec h0 ho g v : built h0 ho v -> built h0 (add_one ho g) (vadd v g).
Proof.
  destruct ho as [h o]. intros (He & [Hr Hd] & Hv). simpl in He, Hr, Hd, Hv. subst v.
  unfold add_one, vadd, built. rewrite assoc_view.
  destruct (assoc_str (fst g) o) as [c|] eqn:Ea; simpl.
  - (* the inner dict is the instance's own, above h0: written in place *)
    destruct (Hr _ c (assoc_str_In _ _ _ Ea)) as [Hlo Hhi].
    split; [apply hext_upd; assumption|]. split.
    + split; [|exact Hd]. intros m' c' Hin'. rewrite heap_upd_length. apply (Hr m' c' Hin').
    + apply view_upd; assumption.
  - pose proof (hext_snoc h [(snd g, user_msg)]) as H1.
    split; [exact (hext_trans _ _ _ He H1)|]. apply hext_length in He. split.
    + split.
      * intros m' c' Hin'. rewrite app_length. simpl. apply in_app_or in Hin'.
        destruct Hin' as [H|[H|[]]]; [specialize (Hr m' c' H); lia|]. injection H as _ <-. lia.
      * rewrite map_app. simpl. apply (NoDup_Add (Add_app _ _ [])). rewrite app_nil_r.
        split; [exact Hd|]. apply (fresh_cell _ _ _ Hr). lia.
    + unfold view at 1. rewrite map_app. simpl. rewrite cell_at_middle. f_equal.
      apply (hext_view _ _ _ H1). intros m' c' Hin'. apply (Hr m' c' Hin').
Qed.

Lemma fold_add_spec h0 adds : forall ho v,
  built h0 ho v -> built h0 (fold_left add_one adds ho) (fold_left vadd adds v).
Proof.
  induction adds as [|g r IH]; intros ho v H; cbn [fold_left]; [exact H|].
  apply IH, add_one_spec, H.
Qed.

Lemma new_unpickler_deep_spec h table adds :
  cells_below (List.length h) table ->
  built h (new_unpickler copy_deep h table adds) (fold_left vadd adds (view h table)).
Proof. intros Hb. apply fold_add_spec, deep_copy_spec, Hb. Qed.

Lemma view_combine_seq {A} (f : A -> cell) (key : A -> string) (l : list A) : forall pre,
  view (pre ++ map f l) (combine (map key l) (seq (List.length pre) (List.length l))) =
  map (fun x => (key x, f x)) l.
Proof.
  induction l as [|a r IH]; intros pre; simpl; [reflexivity|].
  unfold view at 1. simpl. rewrite cell_at_middle. apply f_equal.
  specialize (IH (pre ++ [f a])). rewrite app_length in IH. simpl in IH.
  rewrite Nat.add_1_r, <- app_assoc in IH. simpl in IH. exact IH.
Qed.

Definition base_view : vdict := map (fun mn => (fst mn, map base_item (snd mn))) ml_allowlist.

Lemma view_init : view init_heap init_tbl = base_view.
Proof.
  unfold init_heap, init_tbl, base_view.
  exact (view_combine_seq (fun mn => map base_item (snd mn)) fst ml_allowlist []).
Qed.

Lemma vpermits_base g : vpermits base_view g = in_base g.
Proof.
  unfold vpermits, in_base, base_view.
  induction ml_allowlist as [|[m names] r IH]; simpl; [reflexivity|].
  destruct (String.eqb (fst g) m); [|exact IH].
  induction names as [|n t IHn]; simpl; [reflexivity|].
  destruct (String.eqb (snd g) n); [reflexivity|exact IHn].
Qed.

Lemma init_cells_below : cells_below (List.length init_heap) init_tbl.
Proof.
  intros m c Hin. unfold init_tbl in Hin. apply in_combine_r in Hin. apply in_seq in Hin.
  unfold init_heap. rewrite map_length. lia.
Qed.

Definition inst_ok (h : heap) (o : odict) (a : list gname) : Prop :=
  cells_below (List.length h) o /\ forall g, permits h o g = spec_permits a g.

Lemma hext_inst_ok h h' o a : hext h h' -> inst_ok h o a -> inst_ok h' o a.
Proof.
  intros He [Hb Hp]. split; [exact (hext_cells_below _ _ _ He Hb)|].
  intros g. rewrite permits_view, (hext_view _ _ _ He Hb), <- permits_view. apply Hp.
Qed.

Definition inv (s : st) (al : list (list gname)) : Prop :=
  tbl s = init_tbl /\ hext init_heap (hp s) /\ Forall2 (inst_ok (hp s)) (insts s) al.

Lemma view_table_inv s : tbl s = init_tbl -> hext init_heap (hp s) ->
  view (hp s) (tbl s) = base_view /\ cells_below (List.length (hp s)) (tbl s).
Proof.
  intros -> He. split; [|exact (hext_cells_below _ _ _ He init_cells_below)].
  rewrite (hext_view _ _ _ He init_cells_below). exact view_init.
Qed.

Lemma fresh_instance s al adds :
  inv s al ->
  hext (hp s) (fst (new_unpickler copy_deep (hp s) (tbl s) adds)) /\
  inst_ok (fst (new_unpickler copy_deep (hp s) (tbl s) adds))
          (snd (new_unpickler copy_deep (hp s) (tbl s) adds)) adds.
Proof.
  intros (Ht & He & _). destruct (view_table_inv s Ht He) as [Hv Hb].
  destruct (new_unpickler_deep_spec (hp s) (tbl s) adds Hb) as (A & B & C).
  split; [exact A|]. split; [intros m c Hin; apply (proj1 B m c Hin)|].
  intros g. rewrite permits_view, C, vpermits_fold, Hv, vpermits_base. reflexivity.
Qed.

Definition op_constructs (o : op) : list (list gname) :=
  match o with Construct a => [a] | _ => [] end.

Lemma inv_grow s al h' :
  inv s al -> hext (hp s) h' -> hext init_heap h' /\ Forall2 (inst_ok h') (insts s) al.
Proof.
  intros (_ & He & Hf) A. split; [exact (hext_trans _ _ _ He A)|].
  exact (Forall2_impl _ _ _ _ (fun o a => hext_inst_ok _ _ o a A) Hf).
Qed.

Lemma inv_step s al o : inv s al -> inv (step copy_deep s o) (al ++ op_constructs o).
Proof.
  intros Hi. pose proof Hi as (Ht & _).
  destruct o; simpl; rewrite ?app_nil_r; try exact Hi.
  - destruct (fresh_instance s al adds Hi) as (A & B). destruct (inv_grow s al _ Hi A) as (He & Hf).
    destruct (new_unpickler copy_deep (hp s) (tbl s) adds) as [h1 o1]. simpl in *.
    split; [exact Ht|]. split; [exact He|]. apply Forall2_app; [exact Hf | constructor; [exact B|constructor]].
  - (* a probe load builds an instance and drops it *)
    destruct (active s) as [adds|] eqn:Ea; [|exact Hi].
    destruct (fresh_instance s al adds Hi) as (A & _). destruct (inv_grow s al _ Hi A) as (He & Hf).
    destruct (new_unpickler copy_deep (hp s) (tbl s) adds) as [h1 o1]. simpl in *.
    exact (conj Ht (conj He Hf)).
Qed.

Lemma inv_run h : forall s al, inv s al -> inv (run copy_deep s h) (al ++ constructed h).
Proof.
  induction h as [|o r IH]; intros s al Hi.
  - simpl. rewrite app_nil_r. exact Hi.
  - cbn [run]. replace (al ++ constructed (o :: r)) with ((al ++ op_constructs o) ++ constructed r)
      by (rewrite <- app_assoc; destruct o; reflexivity).
    apply IH, inv_step, Hi.
Qed.

Lemma inv_reachable h : inv (run copy_deep init h) (constructed h).
Proof.
  apply (inv_run h init []). split; [reflexivity|]. split; [apply hext_refl|constructor].
Qed.

Lemma active_step mode s o :
  active (step mode s o) =
  match o with Activate a => Some a | Deactivate => None | _ => active s end.
Proof.
  destruct s as [h0 t0 a0 i0]. destruct o; simpl; try reflexivity.
  - destruct (new_unpickler mode h0 t0 adds). reflexivity.
  - destruct a0 as [l|]; [destruct (new_unpickler mode h0 t0 l)|]; reflexivity.
Qed.

Lemma active_run mode h : forall s, active (run mode s h) = current_adds (active s) h.
Proof.
  induction h as [|o r IH]; intros s; [reflexivity|].
  cbn [run current_adds]. rewrite IH, active_step. destruct o; reflexivity.
Qed.

Lemma base_unchanged h : table_view (run copy_deep init h) = table_view init.
Proof.
  destruct (inv_reachable h) as (Ht & He & _).
  change (view (hp (run copy_deep init h)) (tbl (run copy_deep init h)) = view init_heap init_tbl).
  rewrite (proj1 (view_table_inv _ Ht He)), view_init. reflexivity.
Qed.
