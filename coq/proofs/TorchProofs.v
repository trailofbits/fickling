(* C16: PyTorch payload insertion over an abstract archive and file system. *)
From Coq Require Import List String Lia.
From Verif Require Import Base Poly Torch PolyProofs.
Import ListNotations.
Open Scope string_scope.

Lemma rewrite_names : forall a x, map fst (rewrite a x) = map fst a.
Proof.
  intros a x. unfold rewrite. rewrite map_map. apply map_ext.
  intros [n b]. simpl. destruct (is_model n); reflexivity.
Qed.

Lemma rewrite_nth : forall a x i n b, nth_error a i = Some (n, b) ->
  nth_error (rewrite a x) i = Some (if is_model n then (n, x) else (n, b)).
Proof.
  intros a x i n b H. unfold rewrite.
  rewrite (map_nth_error _ _ _ H). simpl. destruct (is_model n); reflexivity.
Qed.

Lemma count_model_cons : forall e a,
  count_model (e :: a) = (if is_model (fst e) then 1 else 0) + count_model a.
Proof. intros e a. unfold count_model. simpl. destruct (is_model (fst e)); reflexivity. Qed.

Lemma count_zero_none : forall a n b, count_model a = 0 -> In (n, b) a -> is_model n = false.
Proof.
  intros a n b C H. apply length_zero_iff_nil in C.
  destruct (is_model n) eqn:M; [|reflexivity].
  assert (I : In (n, b) (filter (fun e => is_model (fst e)) a)) by (apply filter_In; auto).
  rewrite C in I. destruct I.
Qed.

Lemma first_model_cons : forall e a,
  first_model (e :: a) = if is_model (fst e) then Some (snd e) else first_model a.
Proof. intros e a. unfold first_model. simpl. destruct (is_model (fst e)); reflexivity. Qed.

Lemma first_model_none : forall a, first_model a = None <-> count_model a = 0.
Proof.
  induction a as [|e a IH]; [split; reflexivity|].
  rewrite count_model_cons, first_model_cons.
  destruct (is_model (fst e)); simpl; [split; [discriminate|lia]|exact IH].
Qed.

Lemma unique_model : forall a, count_model a = 1 ->
  exists i n b, nth_error a i = Some (n, b) /\ is_model n = true /\ first_model a = Some b /\
                forall j m c, j <> i -> nth_error a j = Some (m, c) -> is_model m = false.
Proof.
  induction a as [|e a IH]; intros C; [discriminate|].
  rewrite count_model_cons in C. rewrite first_model_cons. destruct (is_model (fst e)) eqn:M.
  - exists 0, (fst e), (snd e). destruct e. repeat split; auto.
    intros [|j] m c J H; [congruence|]. apply (count_zero_none a m c); [simpl in C; lia|exact (nth_error_In a j H)].
  - destruct (IH C) as (i & n & b & H & Mn & F & U). exists (S i), n, b. repeat split; auto.
    intros [|j] m c J Hj; [inversion Hj; subst; exact M|]. apply (U j m c); [lia|exact Hj].
Qed.

Lemma flookup_fwrite_same : forall fs p a, flookup (fwrite fs p a) p = Some a.
Proof. intros. etransitivity; [apply alookup_write|]. rewrite String.eqb_refl. reflexivity. Qed.

Lemma flookup_fwrite_other : forall fs p a q, p <> q -> flookup (fwrite fs p a) q = flookup fs q.
Proof. intros fs p a q H. etransitivity; [apply alookup_write|]. apply String.eqb_neq in H. rewrite H. reflexivity. Qed.

Lemma flookup_fremove_same : forall fs p, flookup (fremove fs p) p = None.
Proof. intros. etransitivity; [apply alookup_remove|]. rewrite String.eqb_refl. reflexivity. Qed.

Lemma flookup_fremove_other : forall fs p q, p <> q -> flookup (fremove fs p) q = flookup fs q.
Proof. intros fs p q H. etransitivity; [apply alookup_remove|]. apply String.eqb_neq in H. rewrite H. reflexivity. Qed.

#[export] Hint Rewrite flookup_fwrite_same flookup_fremove_same : tfs.
#[export] Hint Rewrite flookup_fwrite_other flookup_fremove_other using congruence : tfs.
