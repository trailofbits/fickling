(* Facts about model/Base.v (the result monad, string membership and association lists, decimal
   text) and the list, pair and string facts Coq 8.16's standard library lacks. *)
From Coq Require Import List String Bool Arith ZArith Lia DecimalString DecimalZ.
From Coq Require DecimalPos.
From Verif Require Import Base.
Import ListNotations.
Local Open Scope nat_scope.
Local Open Scope list_scope.

Lemma bind_ok {A B} (r : res A) (f : A -> res B) b :
  bind r f = Ok b -> exists a, r = Ok a /\ f a = Ok b.
Proof. destruct r as [a|e]; cbn; intros H; [eauto | discriminate]. Qed.

(* [inversion] on [Ok a = Ok b] would unfold [a] and [b] first *)
Lemma Ok_inj {A} (a b : A) : Ok a = Ok b -> a = b.
Proof. intros H; injection H; auto. Qed.

Definition rmap {A B} (f : A -> B) (r : res A) : res B :=
  match r with Ok a => Ok (f a) | Err e => Err e end.

Lemma mem_str_In x l : mem_str x l = true <-> In x l.
Proof.
  induction l as [|y l IH]; cbn; [split; [discriminate | tauto]|].
  destruct (String.eqb_spec x y) as [->|N]; [tauto|].
  rewrite IH. split; [tauto | intros [H|H]; [congruence | exact H]].
Qed.

Lemma assoc_str_In {A} x (l : list (string * A)) v : assoc_str x l = Some v -> In (x, v) l.
Proof.
  induction l as [|[k a] l IH]; cbn; [discriminate|].
  destruct (String.eqb_spec x k) as [->|N]; [intros [= ->]; auto | auto].
Qed.

Lemma assoc_str_mem {A} x (l : list (string * A)) :
  mem_str x (map fst l) = match assoc_str x l with Some _ => true | None => false end.
Proof. induction l as [|[k a] l IH]; cbn; [reflexivity|]. destruct (String.eqb x k); auto. Qed.

Lemma assoc_app {A} x (v w : list (string * A)) :
  assoc_str x (v ++ w) = match assoc_str x v with Some c => Some c | None => assoc_str x w end.
Proof.
  induction v as [|[k c] r IH]; simpl; [reflexivity|].
  destruct (String.eqb x k); [reflexivity|exact IH].
Qed.

Lemma z_of_to_string z : z_of_string (z_to_string z) = Some z.
Proof.
  unfold z_of_string, z_to_string. rewrite NilZero.isi.
  - rewrite DecimalZ.of_to. reflexivity.
  - destruct z; simpl; try discriminate. intros [= H]. exact (DecimalPos.Unsigned.to_uint_nonnil _ H).
  - destruct z; simpl; try discriminate. intros [= H]. exact (DecimalPos.Unsigned.to_uint_nonnil _ H).
Qed.

Lemma below_forallb (P : nat -> bool) n : forallb P (seq 0 n) = true -> forall a, a < n -> P a = true.
Proof. intros H a Ha. rewrite forallb_forall in H. apply H, in_seq. lia. Qed.

Lemma forallb_andb {A} (f g : A -> bool) l :
  forallb (fun a => f a && g a) l = forallb f l && forallb g l.
Proof.
  induction l as [|a l IH]; cbn; [reflexivity|]. rewrite IH.
  destruct (f a), (g a), (forallb f l); reflexivity.
Qed.

Lemma forallb_map : forall {A B} (f : B -> bool) (g : A -> B) l,
  forallb f (map g l) = forallb (fun x => f (g x)) l.
Proof. induction l as [|x l IH]; [reflexivity|]. cbn [map forallb]. rewrite IH. reflexivity. Qed.

Lemma Forall_forallb_imp {A} (f : A -> bool) (P : A -> Prop) l :
  forallb f l = true -> Forall (fun x => f x = true -> P x) l -> Forall P l.
Proof. rewrite forallb_forall, !Forall_forall. auto. Qed.

Lemma Forall2_impl {A B} (P Q : A -> B -> Prop) l l' :
  (forall a b, P a b -> Q a b) -> Forall2 P l l' -> Forall2 Q l l'.
Proof. intros H F. induction F; constructor; auto. Qed.

Lemma Forall2_length {A B} (P : A -> B -> Prop) l l' : Forall2 P l l' -> List.length l = List.length l'.
Proof. induction 1; cbn; congruence. Qed.

Lemma Forall2_rev {A B} (P : A -> B -> Prop) l l' : Forall2 P l l' -> Forall2 P (rev l) (rev l').
Proof.
  induction 1 as [|a b l l' H _ IH]; cbn; [constructor|].
  apply Forall2_app; [exact IH | constructor; [exact H | constructor]].
Qed.

Lemma Forall2_nth_error {A B} (P : A -> B -> Prop) l l' : Forall2 P l l' -> forall i,
  match nth_error l i, nth_error l' i with
  | Some a, Some b => P a b
  | None, None => True
  | _, _ => False
  end.
Proof. induction 1 as [|a b l l' H _ IH]; intros [|i]; cbn; auto. apply IH. Qed.

Lemma Forall2_lookup {A B} (P : A -> B -> Prop) l l' i a :
  Forall2 P l l' -> nth_error l i = Some a -> exists b, nth_error l' i = Some b /\ P a b.
Proof.
  intros F E. pose proof (Forall2_nth_error P l l' F i) as H. rewrite E in H.
  destruct (nth_error l' i); [eauto | contradiction].
Qed.

Lemma Forall2_lookup_none {A B} (P : A -> B -> Prop) l l' i :
  Forall2 P l l' -> nth_error l i = None -> nth_error l' i = None.
Proof.
  intros F E. pose proof (Forall2_nth_error P l l' F i) as H. rewrite E in H.
  destruct (nth_error l' i); [contradiction | reflexivity].
Qed.

Lemma Forall_nth_error {A} (P : A -> Prop) l i x : Forall P l -> nth_error l i = Some x -> P x.
Proof. intros F E. rewrite Forall_forall in F. eapply F, nth_error_In, E. Qed.

Lemma forallb_nth_error {A} (f : A -> bool) l i x :
  forallb f l = true -> nth_error l i = Some x -> f x = true.
Proof. intros H E. rewrite forallb_forall in H. eapply H, nth_error_In, E. Qed.

Lemma nth_error_snoc {A} (l : list A) x : nth_error (l ++ [x]) (List.length l) = Some x.
Proof. rewrite nth_error_app2, Nat.sub_diag; [reflexivity | lia]. Qed.

Lemma firstn_app_exact {A} (a b : list A) n : List.length a = n -> firstn n (a ++ b) = a.
Proof. intros <-. rewrite firstn_app, Nat.sub_diag, firstn_all. apply app_nil_r. Qed.

Lemma skipn_app_exact {A} (a b : list A) n : List.length a = n -> skipn n (a ++ b) = b.
Proof. intros <-. rewrite skipn_app, Nat.sub_diag, skipn_all. reflexivity. Qed.

Lemma nth_error_firstn {A} : forall (l : list A) i j, j < i -> nth_error (firstn i l) j = nth_error l j.
Proof.
  induction l as [|x r IH]; intros [|i] [|j] H; cbn; try reflexivity; try lia. apply IH. lia.
Qed.

Lemma nth_error_skipn {A} : forall (l : list A) i j, nth_error (skipn i l) j = nth_error l (i + j).
Proof. induction l as [|x r IH]; intros [|i] j; cbn; auto. destruct j; reflexivity. Qed.

Lemma nth_error_ext {A} : forall l1 l2 : list A,
  (forall j, nth_error l1 j = nth_error l2 j) -> l1 = l2.
Proof.
  induction l1 as [|x r IH]; intros [|y t] H; try reflexivity; try (specialize (H 0); discriminate).
  pose proof (H 0) as H0. injection H0 as ->. f_equal. apply IH. intros j. exact (H (S j)).
Qed.

Lemma skipn_skipn' : forall {A} (n m : nat) (l : list A), skipn n (skipn m l) = skipn (n + m) l.
Proof.
  intros A n m; revert n. induction m as [|m IH]; intros n l; [rewrite Nat.add_0_r; reflexivity|].
  rewrite Nat.add_succ_r. destruct l as [|x l]; [rewrite !skipn_nil; reflexivity|apply IH].
Qed.

Lemma firstn_app_le : forall {A} n (l x : list A), n <= List.length l -> firstn n (l ++ x) = firstn n l.
Proof.
  intros. rewrite firstn_app. replace (n - List.length l) with 0 by lia. simpl. apply app_nil_r.
Qed.

Lemma firstn_firstn_le : forall {A} (l : list A) n m, n <= m -> firstn n (firstn m l) = firstn n l.
Proof. intros A l n m L. rewrite firstn_firstn, Nat.min_l by exact L. reflexivity. Qed.

Lemma firstn_cat_skipn : forall {A} (n m : nat) (l : list A),
  (firstn n l ++ firstn m (skipn n l))%list = firstn (n + m) l.
Proof.
  intros. rewrite firstn_skipn_comm, <- (firstn_firstn_le l n (n + m)) by lia. apply firstn_skipn.
Qed.

Lemma firstn_eq_le : forall {A} (a b : list A) n m, firstn n a = firstn n b -> m <= n -> firstn m a = firstn m b.
Proof. intros A a b n m H L. rewrite <- (firstn_firstn_le a m n L), H. apply firstn_firstn_le, L. Qed.

Lemma firstn_eq_skipn : forall {A} (a b : list A) n m, firstn (n + m) a = firstn (n + m) b ->
  firstn m (skipn n a) = firstn m (skipn n b).
Proof. intros A a b n m H. rewrite !firstn_skipn_comm, H. reflexivity. Qed.

Lemma firstn_eq_length : forall {A} (a b : list A) n, firstn n a = firstn n b -> n <= List.length b ->
  n <= List.length a.
Proof. intros A a b n H L. apply (f_equal (@List.length A)) in H. rewrite !firstn_length in H. lia. Qed.

Lemma firstn_mid_skipn : forall {A} (l : list A) o n,
  l = firstn o l ++ firstn n (skipn o l) ++ skipn (n + o) l.
Proof. intros. rewrite <- skipn_skipn', !firstn_skipn. reflexivity. Qed.

Lemma nth_error_rev {X} : forall (l : list X) j, j < List.length l ->
  nth_error (rev l) j = nth_error l (List.length l - 1 - j).
Proof.
  intros l j H. destruct l as [|d t] eqn:E; [cbn in H; lia|]. rewrite <- E in *.
  rewrite (nth_error_nth' (rev l) d) by (rewrite rev_length; exact H).
  rewrite (nth_error_nth' l d) by lia. f_equal. rewrite rev_nth by exact H. f_equal. lia.
Qed.

Lemma snd_let {A B C} (r : A * B) (g : A -> C) : snd (let '(fs, d') := r in (g fs, d')) = snd r.
Proof. destruct r; reflexivity. Qed.

Lemma half_bounds n : n / 2 * 2 <= n < n / 2 * 2 + 2.
Proof. pose proof (Nat.div_mod n 2). pose proof (Nat.mod_upper_bound n 2). lia. Qed.

Lemma append_nil_r : forall s : string, (s ++ "")%string = s.
Proof. induction s; simpl; congruence. Qed.

Lemma append_assoc : forall a b c : string, ((a ++ b) ++ c = a ++ (b ++ c))%string.
Proof. induction a; simpl; intros; congruence. Qed.

Lemma app_empty (a b : string) : (a ++ b)%string = ""%string -> a = ""%string /\ b = ""%string.
Proof. destruct a; cbn; [auto | discriminate]. Qed.

Lemma concat_empty : forall l, String.concat "" l = ""%string -> Forall (fun x => x = ""%string) l.
Proof.
  induction l as [|x r IH]; intros H; [constructor|].
  destruct r as [|y r'].
  - cbn in H. constructor; [exact H | constructor].
  - change (String.concat "" (x :: y :: r')) with (x ++ "" ++ String.concat "" (y :: r'))%string in H.
    apply app_empty in H. destruct H as [Hx H]. cbn [append] in H.
    constructor; [exact Hx | apply IH; exact H].
Qed.
