(* C08: the injector (Inject.v) over the reference VM.  Every call-injecting mode rewrites the base into
   one normal form (inject_normal_form); the injected blocks are run opcode by opcode (vsteps), the base
   between them by the frame lemma vrun_lift. *)
From Coq Require Import List String ZArith Bool Lia.
From Verif Require Import Base BaseProofs Ops Interp RefVM Shape ShapeProofs Inject.
Import ListNotations.
Local Open Scope nat_scope.
Local Open Scope list_scope.

Lemma py_insert_last {A} (x s : A) q : py_insert (-1) x (q ++ [s]) = q ++ [x; s].
Proof.
  unfold py_insert. rewrite app_length. cbn [List.length Z.ltb Z.compare].
  replace (Z.to_nat (Z.max 0 (Z.of_nat (List.length q + 1) + -1))) with (List.length q) by lia.
  rewrite firstn_app_exact, skipn_app_exact by reflexivity. reflexivity.
Qed.

Lemma insert_last_seq_app {A} (xs : list A) q s :
  insert_last_seq xs (q ++ [s]) = q ++ xs ++ [s].
Proof.
  unfold insert_last_seq. revert q. induction xs as [|x r IH]; intros q; cbn [fold_left app].
  - reflexivity.
  - rewrite py_insert_last. change [x; s] with ([x] ++ [s]). rewrite app_assoc, IH, <- app_assoc. reflexivity.
Qed.

Lemma py_insert_clamp {A} (i : Z) (x : A) l :
  (0 <= i)%Z ->
  py_insert i x l = firstn (Nat.min (Z.to_nat i) (List.length l)) l ++ x :: skipn (Nat.min (Z.to_nat i) (List.length l)) l.
Proof.
  intros N. unfold py_insert. destruct (i <? 0)%Z eqn:E; [lia|].
  replace (Z.to_nat (Z.min i (Z.of_nat (List.length l)))) with (Nat.min (Z.to_nat i) (List.length l)) by lia.
  reflexivity.
Qed.

Lemma py_insert_nonneg {A} (i : nat) (x : A) l :
  i <= List.length l -> py_insert (Z.of_nat i) x l = firstn i l ++ x :: skipn i l.
Proof.
  intros L. rewrite py_insert_clamp by lia. rewrite Nat2Z.id, Nat.min_l by exact L. reflexivity.
Qed.

Lemma py_insert_length {A} (i : Z) (x : A) l : List.length (py_insert i x l) = S (List.length l).
Proof.
  unfold py_insert. rewrite app_length. cbn [List.length]. rewrite firstn_length, skipn_length.
  destruct (i <? 0)%Z; lia.
Qed.

Lemma ends_with_stop_snoc q : ends_with_stop (q ++ [OStop]) = true.
Proof. unfold ends_with_stop. rewrite last_last. reflexivity. Qed.

Lemma ends_with_stop_split p : ends_with_stop p = true -> exists q, p = q ++ [OStop].
Proof.
  unfold ends_with_stop. intros H. induction p as [|o r _] using rev_ind; [discriminate|].
  rewrite last_last in H. destruct o; try discriminate. eauto.
Qed.

Lemma skip_noops_split p :
  p = repeat ONoop (skip_noops p) ++ skipn (skip_noops p) p.
Proof.
  induction p as [|o r IH]; [reflexivity|]. destruct o; try reflexivity.
  cbn [skip_noops repeat skipn app]. f_equal. exact IH.
Qed.

Lemma skip_noops_app_stop q : skip_noops (q ++ [OStop]) = skip_noops q.
Proof.
  induction q as [|o r IH]; [reflexivity|]. destruct o; try reflexivity.
  cbn [app skip_noops]. f_equal. exact IH.
Qed.

Lemma skip_noops_le q : skip_noops q <= List.length q.
Proof.
  rewrite (skip_noops_split q) at 2. rewrite app_length, repeat_length. lia.
Qed.

Lemma insert_block_twice {A} i (a b l : list A) :
  i <= List.length l ->
  insert_block (i + List.length a) b (insert_block i a l) = insert_block i (a ++ b) l.
Proof.
  intros L. unfold insert_block.
  assert (List.length (firstn i l ++ a) = i + List.length a) as E
    by (rewrite app_length, firstn_length_le by exact L; reflexivity).
  rewrite (app_assoc (firstn i l) a), firstn_app_exact, skipn_app_exact, <- !app_assoc by exact E.
  reflexivity.
Qed.

(* NOOP^k q STOP  becomes  NOOP^k pre q post STOP; the NOOPs are the leading PROTO/FRAME opcodes *)
Definition normal_form (pre post q0 : list op) : list op :=
  repeat ONoop (skip_noops q0) ++ pre ++ skipn (skip_noops q0) q0 ++ post ++ [OStop].

Lemma insert_normal_form pre post q0 :
  insert_last_seq post (insert_block (skip_noops (q0 ++ [OStop])) pre (q0 ++ [OStop])) =
  normal_form pre post q0.
Proof.
  unfold insert_block, normal_form. rewrite skip_noops_app_stop.
  rewrite firstn_app, skipn_app. replace (skip_noops q0 - List.length q0) with 0 by (pose proof (skip_noops_le q0); lia).
  cbn [firstn skipn]. rewrite app_nil_r, !app_assoc, insert_last_seq_app, <- !app_assoc.
  rewrite (skip_noops_split q0) at 2. rewrite firstn_app_exact by apply repeat_length. reflexivity.
Qed.

Lemma normal_form_nil post q0 : normal_form [] post q0 = q0 ++ post ++ [OStop].
Proof.
  unfold normal_form. cbn [app]. rewrite app_assoc, <- skip_noops_split. reflexivity.
Qed.

Definition keep_slot (p1 : list op) : Z :=
  match Interp.run p1 with Ok f => Z.of_nat (List.length (memo f)) | Err _ => 0%Z end.

Definition inject_parts (md : mode) (q0 : list op) : option (list op * list op) :=
  match md with
  | MInsert m n args rf rep =>
      let blk := call_setup m n (encode_objs args) in
      Some (if rf then (blk ++ [OReduce], if rep then [OPop] else [OPut KEEP_KEY; OPop; OPop; OGet KEEP_KEY])
            else (blk, if rep then [OPop; OReduce]
                       else [OMemoize; OPop; OReduce; OPop; OGet (keep_slot (normal_form blk [] q0))]))
  | MAppend m n cs pop => Some ([], append_ops m n cs pop)
  | MCallObj fdef fname bc cargs => Some ([], call_on_object_ops fdef fname bc cargs)
  | MMagic _ _ => None
  end.

Lemma inject_normal_form md q0 parts p' :
  inject md (q0 ++ [OStop]) = Ok p' -> inject_parts md q0 = Some parts ->
  p' = normal_form (fst parts) (snd parts) q0.
Proof.
  destruct md as [m n args rf rep|m n cs pop|magic index|fdef fname bc cargs];
    cbn [inject_parts inject]; intros HI HP; [|..]; try discriminate HP;
    unfold insert_python, append_python, insert_call_on_object in HI;
    rewrite ends_with_stop_snoc in HI; cbn [negb] in HI.
  - destruct (forallb arg_ok args); [|discriminate HI]. cbn [negb] in HI. cbv zeta in HP, HI.
    destruct rf; [|destruct rep]; injection HP as <-; cbn [fst snd].
    + rewrite insert_block_twice in HI by (rewrite skip_noops_app_stop, app_length; pose proof (skip_noops_le q0); lia).
      (* Ok_inj: injection unfolds insert_last_seq's fold while unifying *)
      destruct rep; apply Ok_inj in HI; subst p'; apply insert_normal_form.
    + apply Ok_inj in HI. subst p'. apply insert_normal_form.
    + rewrite <- (insert_normal_form _ [] q0). unfold keep_slot, insert_last_seq. cbn [fold_left].
      destruct (run _) as [f|]; [|discriminate HI]. apply Ok_inj in HI. subst p'. apply insert_normal_form.
  - destruct (forallb const_ok cs); [|discriminate HI]. injection HP as <-. apply Ok_inj in HI. subst p'.
    cbn [fst snd]. rewrite normal_form_nil. apply insert_last_seq_app.
  - destruct (forallb const_ok cargs); [|discriminate HI]. injection HP as <-. apply Ok_inj in HI. subst p'.
    cbn [fst snd]. rewrite normal_form_nil. apply insert_last_seq_app.
Qed.

Lemma inject_keep_run m n args q0 p' :
  inject (MInsert m n args false false) (q0 ++ [OStop]) = Ok p' ->
  exists f, Interp.run (normal_form (call_setup m n (encode_objs args)) [] q0) = Ok f.
Proof.
  cbn [inject]. unfold insert_python. rewrite ends_with_stop_snoc. cbn [negb].
  destruct (forallb arg_ok args); [|discriminate]. cbn [negb]. cbv zeta.
  rewrite <- (insert_normal_form _ [] q0). unfold insert_last_seq at 2. cbn [fold_left].
  destruct (run _) as [f|]; [eauto|discriminate].
Qed.

Lemma vrun_skip_noops q s : vrun_from (skipn (skip_noops q) q) s = vrun_from q s.
Proof. rewrite (skip_noops_split q) at 3. rewrite vrun_noops. reflexivity. Qed.

Lemma run_shape_agree p s v s' v' :
  shape_fk s = shape_vm v -> run_from p s = Ok s' -> vrun_from p v = Ok v' -> shape_fk s' = shape_vm v'.
Proof.
  apply (run2_ind (fun a b => shape_fk a = shape_vm b)).
  - intros a b E. exact (f_equal halted E).
  - intros o a b a' b' _ _. apply step_agree.
Qed.

Lemma memo_len_agree p f v :
  Interp.run p = Ok f -> vrun_from p vm_init = Ok v -> List.length (memo f) = List.length (vmemo v).
Proof.
  intros Hf Hv. pose proof (f_equal keys (run_shape_agree p (fk_init 0) vm_init f v eq_refl Hf Hv)) as K. cbn in K.
  rewrite <- (map_length fst (memo f)), K, map_length. reflexivity.
Qed.

(* what the specs assume of a base: its last opcode is its only executed STOP, met with exactly the
   result on the stack *)
Definition base_run (p : list op) : option (val * vm) :=
  if ends_with_stop p then
    match vrun_from (removelast p) vm_init with
    | Ok sq => if is_stopped sq then None else
               match cur sq, meta sq with
               | [r], [] => Some (r, sq)
               | _, _ => None
               end
    | Err _ => None
    end
  else None.

Definition stopped_with (r : val) (sq : vm) : vm :=
  mkVm [] [] (vmemo sq) (heap sq) (log sq) (nobj sq) (Some r).

Lemma base_run_inv p r sq :
  base_run p = Some (r, sq) ->
  exists q mm h lg k, p = q ++ [OStop] /\ sq = mkVm [r] [] mm h lg k None /\ vrun_from q vm_init = Ok sq.
Proof.
  unfold base_run. destruct (ends_with_stop p) eqn:E; [|discriminate].
  apply ends_with_stop_split in E. destruct E as (q & ->). rewrite removelast_last.
  destruct (vrun_from q vm_init) as [s|] eqn:R; [|discriminate].
  destruct s as [c me mm h lg k [x|]]; cbn [is_stopped vstopped cur meta]; [discriminate|].
  destruct c as [|x [|? ?]]; try discriminate. destruct me; try discriminate.
  intros H. injection H as <- <-. exists q, mm, h, lg, k. auto.
Qed.

(* GLOBAL's test on its two names (find_class); unfolded only in st_global and InjectSevProofs.fk_global *)
Definition plain2 (m n : string) : bool := plain m && plain n.

Lemma memo_get_put {A} k (v : A) m : memo_get k (memo_put k v m) = Some v.
Proof. unfold memo_put. cbn [memo_get]. rewrite Z.eqb_refl. reflexivity. Qed.

Lemma vpairs_flat ps : vpairs_of (flat_map (fun kv => [fst kv; snd kv]) ps) = Ok ps.
Proof. induction ps as [|[k v] r IH]; [reflexivity|]. cbn [flat_map app fst snd vpairs_of]. rewrite IH. reflexivity. Qed.


Lemma st_global m n c me mm h lg k st :
  plain2 m n = true ->
  vstep (OGlobal m n) (mkVm c me mm h lg k st) = Ok (mkVm (VGlobal m n :: c) me mm h (EvResolve m n :: lg) k st).
Proof. intros P. unfold vstep, find_class. unfold plain2 in P. rewrite P. reflexivity. Qed.
Lemma st_mark c me mm h lg k st :
  vstep OMark (mkVm c me mm h lg k st) = Ok (mkVm [] (c :: me) mm h lg k st).
Proof. reflexivity. Qed.
Lemma st_tuple c p me mm h lg k st :
  vstep OTuple (mkVm c (p :: me) mm h lg k st) = Ok (mkVm (VTuple (rev c) :: p) me mm h lg k st).
Proof. reflexivity. Qed.
Lemma st_reduce f l c me mm h lg k st :
  callable f = true ->
  vstep OReduce (mkVm (VTuple l :: f :: c) me mm h lg k st) =
  Ok (mkVm (VObj k :: c) me mm h (EvCall f l None k :: lg) (S k) st).
Proof. intros F. unfold vstep, do_call. cbn [vpop cur bind with_frames]. rewrite F. reflexivity. Qed.
Lemma st_pop x c me mm h lg k st :
  vstep OPop (mkVm (x :: c) me mm h lg k st) = Ok (mkVm c me mm h lg k st).
Proof. reflexivity. Qed.
Lemma st_const x c me mm h lg k st :
  vstep (OConst x) (mkVm c me mm h lg k st) = Ok (mkVm (VConst x :: c) me mm h lg k st).
Proof. reflexivity. Qed.
Lemma st_put key x c me mm h lg k st :
  (0 <= key)%Z ->
  vstep (OPut key) (mkVm (x :: c) me mm h lg k st) = Ok (mkVm (x :: c) me (memo_put key x mm) h lg k st).
Proof. intros K. unfold vstep. cbn [vtop cur bind]. destruct (key <? 0)%Z eqn:E; [lia|reflexivity]. Qed.
Lemma st_get key c me mm h lg k st :
  vstep (OGet key) (mkVm c me mm h lg k st) =
  match memo_get key mm with Some x => Ok (mkVm (x :: c) me mm h lg k st) | None => Err EKey end.
Proof. reflexivity. Qed.
Lemma st_memoize x c me mm h lg k st :
  vstep OMemoize (mkVm (x :: c) me mm h lg k st) =
  Ok (mkVm (x :: c) me (memo_put (Z.of_nat (List.length mm)) x mm) h lg k st).
Proof. reflexivity. Qed.
Lemma st_stop x c me mm h lg k st :
  vstep OStop (mkVm (x :: c) me mm h lg k st) = Ok (mkVm c me mm h lg k (Some x)).
Proof. reflexivity. Qed.
Lemma st_list c p me mm h lg k st :
  vstep OList (mkVm c (p :: me) mm h lg k st) =
  Ok (mkVm (VRef (List.length h) :: p) me mm (h ++ [HList (rev c)]) lg k st).
Proof. reflexivity. Qed.
Lemma st_empty_dict c me mm h lg k st :
  vstep OEmptyDict (mkVm c me mm h lg k st) = Ok (mkVm (VRef (List.length h) :: c) me mm (h ++ [HDict []]) lg k st).
Proof. reflexivity. Qed.
Lemma st_dict c p me mm h lg k st ps :
  rev c = flat_map (fun kv => [fst kv; snd kv]) ps -> forallb (fun kv => hashable (fst kv)) ps = true ->
  vstep ODict (mkVm c (p :: me) mm h lg k st) =
  Ok (mkVm (VRef (List.length h) :: p) me mm (h ++ [HDict ps]) lg k st).
Proof.
  intros E H. unfold vstep, vpop_mark. cbn [meta cur bind]. rewrite E, vpairs_flat. cbn [bind]. rewrite H. reflexivity.
Qed.

(* GLOBAL needs plain2 m n = true among the hypotheses; GET a key put just before, or literal keys *)
Ltac vsteps :=
  repeat (rewrite vrun_cons;
          lazymatch goal with
          | |- context [vstep (OGlobal _ _) _] => rewrite st_global by (assumption || reflexivity)
          | |- context [vstep OMark _] => rewrite st_mark
          | |- context [vstep OTuple _] => rewrite st_tuple
          | |- context [vstep OReduce _] => rewrite st_reduce by reflexivity
          | |- context [vstep OPop _] => rewrite st_pop
          | |- context [vstep (OConst _) _] => rewrite st_const
          | |- context [vstep (OPut _) _] => rewrite st_put by (try unfold KEEP_KEY; lia)
          | |- context [vstep OMemoize _] => rewrite st_memoize
          | |- context [vstep OStop _] => rewrite st_stop
          | |- context [vstep (OGet _) _] =>
              rewrite st_get; first [ rewrite memo_get_put | cbn [memo_get memo_put memo_remove Z.eqb Pos.eqb] ]
          end;
          cbn [bind]).

Lemma vrun_consts cs rest c m mm h lg n :
  vrun_from (map OConst cs ++ rest) (mkVm c m mm h lg n None) =
  vrun_from rest (mkVm (rev (map VConst cs) ++ c) m mm h lg n None).
Proof.
  revert c. induction cs as [|x r IH]; intros c; [reflexivity|].
  cbn [map app rev]. rewrite vrun_cons, st_const. cbn [bind]. rewrite IH, <- app_assoc. reflexivity.
Qed.

Lemma vrun_call_consts m n cs pop rest c me mm h lg k :
  plain2 m n = true ->
  vrun_from (append_ops m n cs pop ++ rest) (mkVm c me mm h lg k None) =
  vrun_from ((if pop then [OPop] else []) ++ rest)
            (mkVm (VObj k :: c) me mm h (EvCall (VGlobal m n) (map VConst cs) None k :: EvResolve m n :: lg) (S k) None).
Proof.
  intros P. unfold append_ops. rewrite <- !app_assoc. cbn [app]. vsteps. rewrite vrun_consts. cbn [app]. vsteps.
  rewrite app_nil_r, rev_involutive. reflexivity.
Qed.

Definition callobj_log (fdef fname : string) (bc : option string) (k : nat) (lg : list event) : list event :=
  match bc with
  | None =>
      [EvCall (VGlobal "builtins" "eval") [VConst (CStr fname)] None (S k);
       EvResolve "builtins" "eval";
       EvCall (VGlobal "builtins" "exec") [VConst (CStr fdef)] None k;
       EvResolve "builtins" "exec"] ++ lg
  | Some code =>
      [EvCall (VGlobal "builtins" "eval") [VConst (CStr fname)] None (S (S k));
       EvResolve "builtins" "eval";
       EvCall (VGlobal "builtins" "exec") [VObj k] None (S k);
       EvResolve "builtins" "exec";
       EvCall (VGlobal "marshal" "loads") [VConst (CBytes code)] None k;
       EvResolve "marshal" "loads"] ++ lg
  end.

(* the id of the function object: of what eval(fname) returned *)
Definition callobj_fn (bc : option string) (k : nat) : nat :=
  match bc with None => S k | Some _ => S (S k) end.

Lemma callobj_tail fname cargs r mm h lg k :
  exists mm',
  vrun_from (append_ops "builtins" "eval" [CStr fname] false ++
             OPut 1 :: OPop :: OPut 2 :: OPop :: OGet 1 :: OMark :: OGet 2 :: map OConst cargs ++ [OTuple; OReduce; OStop])
            (mkVm [r] [] mm h lg k None) =
  Ok (mkVm [] [] mm' h
           (EvCall (VObj k) (r :: map VConst cargs) None (S k) ::
            EvCall (VGlobal "builtins" "eval") [VConst (CStr fname)] None k :: EvResolve "builtins" "eval" :: lg)
           (S (S k)) (Some (VObj (S k)))).
Proof.
  eexists. rewrite vrun_call_consts by reflexivity. cbn [app]. vsteps. rewrite vrun_consts. cbn [app]. vsteps.
  rewrite rev_app_distr, rev_involutive. reflexivity.
Qed.

Definition magic_pos (index : Z) (p : list op) : nat :=
  Nat.min (Z.to_nat (magic_slot index p)) (List.length p).

Lemma magic_shape magic index p :
  insert_magic_int magic index p =
  firstn (magic_pos index p) p ++ OConst (CInt magic) :: OPop :: skipn (magic_pos index p) p.
Proof.
  unfold insert_magic_int, magic_pos. cbv zeta.
  assert (0 <= magic_slot index p)%Z as N by (unfold magic_slot; destruct (index <? 0)%Z eqn:E; lia).
  set (i := magic_slot index p) in *. set (j := Nat.min (Z.to_nat i) (List.length p)).
  assert (List.length (firstn j p ++ [OConst (CInt magic)]) = S j) as L
    by (rewrite app_length, firstn_length; cbn [List.length]; lia).
  rewrite (py_insert_clamp i) by exact N. fold j.
  change (firstn j p ++ OConst (CInt magic) :: skipn j p) with (firstn j p ++ [OConst (CInt magic)] ++ skipn j p).
  rewrite app_assoc, py_insert_clamp by lia.
  replace (Nat.min _ _) with (S j) by (rewrite app_length, L, skipn_length; lia).
  rewrite firstn_app_exact, skipn_app_exact, <- app_assoc by exact L. reflexivity.
Qed.

Theorem magic_run_same magic index p s :
  vrun_from (insert_magic_int magic index p) s = vrun_from p s.
Proof.
  rewrite magic_shape. set (j := magic_pos index p). rewrite <- (firstn_skipn j p) at 3.
  rewrite !vrun_app. destruct (vrun_from _ s) as [sa|]; [|reflexivity]. cbn [bind vrun_from].
  destruct (is_stopped sa) eqn:E; [symmetry; apply vrun_stopped; exact E|].
  destruct sa as [c me mm h lg k [x|]]; [discriminate E|]. reflexivity.
Qed.

Lemma magic_shape_default magic q s :
  insert_magic_int magic (-1) (q ++ [s]) = q ++ [OConst (CInt magic); OPop; s].
Proof.
  rewrite magic_shape. unfold magic_pos, magic_slot. cbn [Z.ltb Z.compare].
  rewrite app_length. cbn [List.length].
  replace (Nat.min _ _) with (List.length q) by lia.
  rewrite firstn_app_exact, skipn_app_exact by reflexivity. reflexivity.
Qed.

(* The frame: b at the bottom of the stack (below every mark), dn earlier calls (object ids shifted),
   hp earlier heap objects (references shifted), lg0 an earlier log.  A run goes the same way in it and
   leaves it untouched (vrun_lift). *)
Section Lift.
Variable dn : nat.
Variable hp : list hobj.
Variable lg0 : list event.
Variable b : list val.
Let dh := List.length hp.

Fixpoint shv (v : val) : val :=
  match v with
  | VConst c => VConst c
  | VGlobal m n => VGlobal m n
  | VTuple l => VTuple (map shv l)
  | VRef i => VRef (dh + i)
  | VFrozen l => VFrozen (map shv l)
  | VObj k => VObj (k + dn)
  end.

Definition shp (kv : val * val) : val * val := (shv (fst kv), shv (snd kv)).
Definition shh (o : hobj) : hobj :=
  match o with
  | HList l => HList (map shv l)
  | HSet l => HSet (map shv l)
  | HDict kvs => HDict (map shp kvs)
  end.
Definition she (e : event) : event :=
  match e with
  | EvResolve m n => EvResolve m n
  | EvCall f args kw r => EvCall (shv f) (map shv args) (option_map shv kw) (r + dn)
  | EvPersLoad pid r => EvPersLoad (shv pid) (r + dn)
  | EvSetState o st => EvSetState (shv o) (shv st)
  | EvSetItem o k v => EvSetItem (shv o) (shv k) (shv v)
  end.
Definition shm (kv : Z * val) : Z * val := (fst kv, shv (snd kv)).

Fixpoint ext_frames (c : list val) (m : list (list val)) : list val * list (list val) :=
  match m with
  | [] => (c ++ b, [])
  | p :: r => (c, fst (ext_frames p r) :: snd (ext_frames p r))
  end.

Definition lift (s : vm) : vm :=
  let e := ext_frames (map shv (cur s)) (map (map shv) (meta s)) in
  mkVm (fst e) (snd e) (map shm (vmemo s)) (hp ++ map shh (heap s)) (map she (log s) ++ lg0)
       (nobj s + dn) (option_map shv (vstopped s)).

Lemma ext_cons x c m :
  ext_frames (x :: c) m = (x :: fst (ext_frames c m), snd (ext_frames c m)).
Proof. destruct m; reflexivity. Qed.

Lemma lift_stopped s : is_stopped (lift s) = is_stopped s.
Proof. unfold is_stopped, lift. cbn [vstopped]. destruct (vstopped s); reflexivity. Qed.

Lemma vpush'_lift v s : lift (vpush' v s) = vpush' (shv v) (lift s).
Proof.
  unfold lift, vpush', with_frames. cbn [cur meta vmemo heap log nobj vstopped map].
  rewrite ext_cons. reflexivity.
Qed.

Lemma vpop_lift s x c : cur s = x :: c -> vpop (lift s) = Ok (shv x, lift (with_frames s c (meta s))).
Proof.
  intros E. unfold vpop, lift. rewrite E. cbn [map cur meta]. rewrite ext_cons. reflexivity.
Qed.

Lemma vtop_lift s x c : cur s = x :: c -> vtop (lift s) = Ok (shv x).
Proof. intros E. unfold vtop, lift. rewrite E. cbn [map cur]. rewrite ext_cons. reflexivity. Qed.

Lemma vpop_mark_lift s p m :
  meta s = p :: m -> vpop_mark (lift s) = Ok (map shv (rev (cur s)), lift (with_frames s p m)).
Proof.
  intros E. unfold vpop_mark, lift. rewrite E. cbn [map cur meta ext_frames fst snd]. rewrite map_rev. reflexivity.
Qed.

Lemma heap_lift_length s : List.length (heap (lift s)) = dh + List.length (heap s).
Proof. unfold lift. cbn [heap]. rewrite app_length, map_length. reflexivity. Qed.

Lemma valloc_lift o s : lift (snd (valloc o s)) = snd (valloc (shh o) (lift s)).
Proof.
  unfold valloc, lift. cbn [cur meta vmemo heap log nobj vstopped snd]. rewrite map_app, app_assoc. reflexivity.
Qed.

Lemma vset_obj_lift i o s : lift (vset_obj i o s) = vset_obj (dh + i) (shh o) (lift s).
Proof.
  unfold lift, vset_obj. cbn [cur meta vmemo heap log nobj vstopped].
  unfold dh. rewrite set_nth_app, map_set_nth. reflexivity.
Qed.

Lemma vget_obj_lift i s : vget_obj (dh + i) (lift s) = option_map shh (vget_obj i s).
Proof.
  unfold vget_obj, lift. cbn [heap]. unfold dh.
  rewrite nth_error_app2 by lia. replace (List.length hp + i - List.length hp) with i by lia.
  rewrite nth_error_map. reflexivity.
Qed.

Lemma callable_shv v : callable (shv v) = callable v.
Proof. destruct v; reflexivity. Qed.

Lemma called_lift f args kw s :
  lift (called f args kw s) = called (shv f) (map shv args) (option_map shv kw) (lift s).
Proof. unfold called. rewrite vpush'_lift. reflexivity. Qed.

Lemma hashable_shv v : hashable (shv v) = hashable v.
Proof.
  revert v. fix IH 1. intros v. destruct v as [c|m n|l|i|l|k]; try reflexivity.
  cbn [shv hashable]. induction l as [|x r IHl]; [reflexivity|].
  cbn [map forallb]. rewrite IH, IHl. reflexivity.
Qed.

Lemma forallb_hashable_map l : forallb hashable (map shv l) = forallb hashable l.
Proof. induction l as [|x r IH]; [reflexivity|]. cbn. rewrite hashable_shv, IH. reflexivity. Qed.

Lemma vpairs_of_lift l kvs : vpairs_of l = Ok kvs -> vpairs_of (map shv l) = Ok (map shp kvs).
Proof.
  revert l kvs. fix IH 1. intros l kvs. destruct l as [|k [|v r]]; cbn [vpairs_of map].
  - intros H. injection H as <-. reflexivity.
  - discriminate.
  - destruct (vpairs_of r) as [t|] eqn:E; cbn [bind]; [|discriminate].
    intros H. injection H as <-. rewrite (IH r t E). reflexivity.
Qed.

Lemma forallb_hash_keys kvs :
  forallb (fun kv => hashable (fst kv)) (map shp kvs) = forallb (fun kv => hashable (fst kv)) kvs.
Proof.
  induction kvs as [|x r IH]; [reflexivity|]. cbn. rewrite hashable_shv, IH. reflexivity.
Qed.

Lemma memo_remove_lift k m : memo_remove k (map shm m) = map shm (memo_remove k m).
Proof.
  induction m as [|[k' v] r IH]; [reflexivity|]. cbn. destruct (Z.eqb k k'); [exact IH|].
  cbn. rewrite IH. reflexivity.
Qed.
Lemma memo_put_lift k v m : memo_put k (shv v) (map shm m) = map shm (memo_put k v m).
Proof. unfold memo_put. rewrite memo_remove_lift. reflexivity. Qed.
Lemma memo_get_lift k m : memo_get k (map shm m) = option_map shv (memo_get k m).
Proof.
  induction m as [|[k' v] r IH]; [reflexivity|]. cbn. destruct (Z.eqb k k'); [reflexivity|exact IH].
Qed.

Lemma fold_vlog_lift d kvs s :
  lift (fold_left (fun st kv => vlog (EvSetItem d (fst kv) (snd kv)) st) kvs s) =
  fold_left (fun st kv => vlog (EvSetItem (shv d) (fst kv) (snd kv)) st) (map shp kvs) (lift s).
Proof.
  revert s. induction kvs as [|x r IH]; intros s; [reflexivity|]. cbn [fold_left map]. rewrite IH. reflexivity.
Qed.

(* One case per way an opcode succeeds (vstep_spec).  The premises answer the pops and tests on the
   lifted state, and lift moves inside the successor.  Left over, in this order, are the cases that read
   the frames, the stand-in or the memo directly: POP (above a value, on an empty frame), SETITEM and
   SETITEMS on a stand-in, OBJ, PUT, GET, MEMOIZE. *)
Lemma vstep_lift o s s' : vstep o s = Ok s' -> vstep o (lift s) = Ok (lift s').
Proof.
  intros H. destruct (vstep_sound _ _ _ H); cbn [vstep].
  all: repeat (first [ erewrite vpop_lift by (eassumption || reflexivity)
                     | erewrite vtop_lift by (eassumption || reflexivity)
                     | erewrite vpop_mark_lift by (eassumption || reflexivity)
                     | erewrite vpairs_of_lift by eassumption ];
               cbn [bind]).
  all: rewrite ?called_lift, ?vset_obj_lift, ?vpush'_lift, ?valloc_lift.
  all: unfold do_call, find_class; cbn [shv].
  all: rewrite <- ?heap_lift_length, ?vget_obj_lift, ?hashable_shv, ?callable_shv, ?forallb_hashable_map,
         ?forallb_hash_keys.
  all: unfold vget_obj; cbn [heap with_frames].
  all: repeat match goal with
       | E : _ = Some _ |- _ => rewrite E
       | E : _ = true |- _ => rewrite E
       | E : _ = false |- _ => rewrite E
       end.
  all: cbn [option_map shh map]; rewrite ?map_app.
  all: try reflexivity.
  - unfold lift. rewrite H0. cbn [cur meta map with_frames]. rewrite ext_cons. reflexivity.
  - unfold lift. rewrite H0, H1. reflexivity.
  - now destruct d.
  - pose proof (fold_vlog_eq d kvs (with_frames s (d :: c) m)) as E. simp_proj.
    rewrite <- E, fold_vlog_lift. now destruct d.
  - rewrite H1. cbn [map]. rewrite callable_shv, H2. reflexivity.
  - unfold lift. simp_proj. rewrite memo_put_lift. reflexivity.
  - unfold lift at 1. cbn [vmemo]. rewrite memo_get_lift, H0. reflexivity.
  - unfold lift. simp_proj. rewrite map_length, memo_put_lift. reflexivity.
Qed.

Lemma vrun_lift p s s' : vrun_from p s = Ok s' -> vrun_from p (lift s) = Ok (lift s').
Proof.
  intros H.
  destruct (loop_sim is_stopped vstep is_stopped vstep (fun a t => t = lift a)) with p s (lift s) s'
    as (t & Ht & ->); [| |reflexivity|exact H|exact Ht].
  - intros a t ->. symmetry. apply lift_stopped.
  - intros o a t a' -> Ha. eauto using vstep_lift.
Qed.

Lemma lift_init : lift vm_init = mkVm b [] [] hp lg0 dn None.
Proof. unfold lift, vm_init. cbn. rewrite app_nil_r. reflexivity. Qed.
End Lift.

Definition args_eval (m n : string) (args : list arg) (vals : list val) (hp : list hobj) : Prop :=
  vrun_from (call_setup m n (encode_objs args)) vm_init =
  Ok (mkVm [VTuple vals; VGlobal m n] [] [] hp [EvResolve m n] 0 None).

(* the set-up block leaves a lifted empty machine (lift_init), so the base after it runs lifted *)
Lemma vrun_framed dn hp lg0 b blk post q0 sq :
  vrun_from blk vm_init = Ok (lift dn hp lg0 b vm_init) -> vrun_from q0 vm_init = Ok sq ->
  vrun_from (normal_form blk post q0) vm_init = vrun_from (post ++ [OStop]) (lift dn hp lg0 b sq).
Proof.
  intros HB HQ. unfold normal_form. rewrite vrun_noops, vrun_app, HB. cbn [bind].
  rewrite vrun_app, (vrun_lift dn hp lg0 b _ _ _ (eq_trans (vrun_skip_noops q0 vm_init) HQ)). reflexivity.
Qed.

Section Insert.
Variables (m n : string) (args : list arg) (vals : list val) (hp : list hobj).
Hypothesis AE : args_eval m n args vals hp.

Theorem insert_run_first_spec p r sq rep p' :
  base_run p = Some (r, sq) ->
  inject (MInsert m n args true rep) p = Ok p' ->
  exists mm',
  vrun_from p' vm_init =
  Ok (mkVm [] [] mm' (hp ++ map (shh 1 hp) (heap sq))
           (map (she 1 hp) (log sq) ++ [EvCall (VGlobal m n) vals None 0; EvResolve m n])
           (nobj sq + 1) (Some (if rep then VObj 0 else shv 1 hp r))).
Proof.
  intros HB HI. apply base_run_inv in HB. destruct HB as (q & mm & h & lg & k & -> & -> & R).
  rewrite (inject_normal_form _ _ _ _ HI eq_refl). cbn [fst snd heap log nobj].
  rewrite (vrun_framed 1 hp [EvCall (VGlobal m n) vals None 0; EvResolve m n] [VObj 0] _ _ _ _) with (2 := R).
  - unfold lift. cbn [cur meta vmemo heap log nobj vstopped map ext_frames fst snd app option_map].
    destruct rep; vsteps; eexists; reflexivity.
  - rewrite lift_init, vrun_app, AE. cbn [bind]. vsteps. reflexivity.
Qed.

(* nobj sq + 0, shv 0 hp: lift with dn = 0, left as C08_insert_run_last states it *)
Theorem insert_run_last_spec p r sq rep p' :
  base_run p = Some (r, sq) ->
  inject (MInsert m n args false rep) p = Ok p' ->
  exists mm',
  vrun_from p' vm_init =
  Ok (mkVm [] [] mm' (hp ++ map (shh 0 hp) (heap sq))
           (EvCall (VGlobal m n) vals None (nobj sq + 0) :: map (she 0 hp) (log sq) ++ [EvResolve m n])
           (S (nobj sq + 0)) (Some (if rep then VObj (nobj sq + 0) else shv 0 hp r))).
Proof.
  intros HB HI. apply base_run_inv in HB. destruct HB as (q & mm & h & lg & k & -> & -> & R).
  assert (forall post, vrun_from (normal_form (call_setup m n (encode_objs args)) post q) vm_init =
            vrun_from (post ++ [OStop])
              (mkVm [shv 0 hp r; VTuple vals; VGlobal m n] [] (map (shm 0 hp) mm) (hp ++ map (shh 0 hp) h)
                    (map (she 0 hp) lg ++ [EvResolve m n]) (k + 0) None)) as RUN.
  { intros post. rewrite (vrun_framed 0 hp [EvResolve m n] [VTuple vals; VGlobal m n] _ _ _ _) with (2 := R);
      [reflexivity | rewrite lift_init; exact AE]. }
  rewrite (inject_normal_form _ _ _ _ HI eq_refl). cbn [fst snd heap log nobj].
  rewrite RUN. destruct rep; cbn [app]; [vsteps; eexists; reflexivity|].
  (* keep_slot: fickling's run of the prefixed pickle has as many memo keys as the VM's *)
  destruct (inject_keep_run _ _ _ _ _ HI) as (f & RF). unfold keep_slot. rewrite RF.
  assert (List.length (memo f) = List.length (map (shm 0 hp) mm)) as ->.
  { refine (memo_len_agree _ _ (mkVm _ _ (map (shm 0 hp) mm) _ _ _ _) RF _). rewrite RUN. vsteps. reflexivity. }
  vsteps. eexists. reflexivity.
Qed.
End Insert.

(* what _encode_python_obj's opcodes build on the VM from heap h: (value, heap after), inner
   objects allocated first *)
Fixpoint dec (a : arg) (h : list hobj) : val * list hobj :=
  match a with
  | AConst c => (VConst c, h)
  | AList l =>
      let r := (fix go (l : list arg) (h : list hobj) : list val * list hobj :=
                  match l with
                  | [] => ([], h)
                  | x :: t => let r1 := dec x h in let r2 := go t (snd r1) in (fst r1 :: fst r2, snd r2)
                  end) l h in
      (VRef (List.length (snd r)), snd r ++ [HList (fst r)])
  | ADict kvs =>
      let r := (fix go (kvs : list (const * arg)) (h : list hobj) : list (val * val) * list hobj :=
                  match kvs with
                  | [] => ([], h)
                  | (k, v) :: t => let r1 := dec v h in let r2 := go t (snd r1) in
                                   ((VConst k, fst r1) :: fst r2, snd r2)
                  end) kvs h in
      (VRef (List.length (snd r)), snd r ++ [HDict (fst r)])
  end.

Fixpoint dec_list (l : list arg) (h : list hobj) : list val * list hobj :=
  match l with
  | [] => ([], h)
  | x :: t => let r1 := dec x h in let r2 := dec_list t (snd r1) in (fst r1 :: fst r2, snd r2)
  end.
Fixpoint dec_dict (kvs : list (const * arg)) (h : list hobj) : list (val * val) * list hobj :=
  match kvs with
  | [] => ([], h)
  | (k, v) :: t => let r1 := dec v h in let r2 := dec_dict t (snd r1) in
                   ((VConst k, fst r1) :: fst r2, snd r2)
  end.
Fixpoint enc_dict (kvs : list (const * arg)) : list op :=
  match kvs with [] => [] | (k, v) :: r => OConst k :: encode_obj v ++ enc_dict r end.

(* dec_list, dec_dict, enc_dict name the inner loops of dec and encode_obj: equal by conversion *)
Lemma dec_AList l h :
  dec (AList l) h = (VRef (List.length (snd (dec_list l h))), snd (dec_list l h) ++ [HList (fst (dec_list l h))]).
Proof. reflexivity. Qed.

Lemma dec_ADict kvs h :
  dec (ADict kvs) h = (VRef (List.length (snd (dec_dict kvs h))), snd (dec_dict kvs h) ++ [HDict (fst (dec_dict kvs h))]).
Proof. reflexivity. Qed.

Lemma encode_AList l : encode_obj (AList l) = OMark :: encode_objs l ++ [OList].
Proof. reflexivity. Qed.

Lemma encode_ADict_cons kv kvs : encode_obj (ADict (kv :: kvs)) = OMark :: enc_dict (kv :: kvs) ++ [ODict].
Proof. reflexivity. Qed.

Lemma encode_objs_cons x r : encode_objs (x :: r) = encode_obj x ++ encode_objs r.
Proof. reflexivity. Qed.

Section ArgInd.
Variable P : arg -> Prop.
Hypothesis Hc : forall c, P (AConst c).
Hypothesis Hl : forall l, Forall P l -> P (AList l).
Hypothesis Hd : forall kvs, Forall (fun kv => P (snd kv)) kvs -> P (ADict kvs).
Fixpoint arg_ind' (a : arg) : P a :=
  match a with
  | AConst c => Hc c
  | AList l => Hl l ((fix go (l : list arg) : Forall P l :=
                        match l with
                        | [] => Forall_nil P
                        | x :: r => Forall_cons x (arg_ind' x) (go r)
                        end) l)
  | ADict kvs => Hd kvs ((fix go (kvs : list (const * arg)) : Forall (fun kv => P (snd kv)) kvs :=
                            match kvs with
                            | [] => Forall_nil _
                            | kv :: r => Forall_cons kv (arg_ind' (snd kv)) (go r)
                            end) kvs)
  end.
End ArgInd.

Definition pushes (a : arg) : Prop :=
  forall rest c me mm h lg k,
    vrun_from (encode_obj a ++ rest) (mkVm c me mm h lg k None) =
    vrun_from rest (mkVm (fst (dec a h) :: c) me mm (snd (dec a h)) lg k None).

Lemma encode_objs_run l : Forall pushes l ->
  forall rest c me mm h lg k,
    vrun_from (encode_objs l ++ rest) (mkVm c me mm h lg k None) =
    vrun_from rest (mkVm (rev (fst (dec_list l h)) ++ c) me mm (snd (dec_list l h)) lg k None).
Proof.
  induction 1 as [|x r Hx _ IH]; intros rest c me mm h lg k; [reflexivity|].
  rewrite encode_objs_cons. cbn [dec_list fst snd]. rewrite <- app_assoc, Hx, IH. cbn [rev]. rewrite <- app_assoc. reflexivity.
Qed.

Lemma enc_dict_run kvs : Forall (fun kv => pushes (snd kv)) kvs ->
  forall rest c me mm h lg k,
    vrun_from (enc_dict kvs ++ rest) (mkVm c me mm h lg k None) =
    vrun_from rest (mkVm (rev (flat_map (fun kv => [fst kv; snd kv]) (fst (dec_dict kvs h))) ++ c) me mm
                         (snd (dec_dict kvs h)) lg k None).
Proof.
  induction 1 as [|[kc v] r Hx _ IH]; intros rest c me mm h lg k; [reflexivity|].
  cbn [enc_dict dec_dict fst snd flat_map app]. rewrite vrun_cons, st_const. cbn [bind].
  rewrite <- app_assoc. cbn [snd] in Hx. rewrite Hx, IH. cbn [rev]. repeat rewrite <- app_assoc. reflexivity.
Qed.

Lemma dec_dict_keys_hashable kvs h :
  forallb (fun kv => hashable (fst kv)) (fst (dec_dict kvs h)) = true.
Proof.
  revert h. induction kvs as [|[k v] r IH]; intros h; [reflexivity|]. cbn [dec_dict fst forallb hashable andb]. apply IH.
Qed.

Lemma encode_obj_pushes : forall a, pushes a.
Proof.
  apply arg_ind'.
  - intros c rest st me mm h lg k. cbn [encode_obj app dec fst snd]. rewrite vrun_cons, st_const. reflexivity.
  - intros l F rest c me mm h lg k. rewrite encode_AList, dec_AList. cbn [app fst snd].
    rewrite vrun_cons, st_mark. cbn [bind]. rewrite <- app_assoc, (encode_objs_run l F). cbn [app].
    rewrite vrun_cons, st_list. cbn [bind]. rewrite app_nil_r, rev_involutive. reflexivity.
  - intros kvs F rest c me mm h lg k. destruct kvs as [|kv kvs].
    + cbn [encode_obj app]. rewrite dec_ADict. cbn [dec_dict fst snd]. rewrite vrun_cons, st_empty_dict. reflexivity.
    + rewrite encode_ADict_cons, dec_ADict. cbn [app fst snd].
      rewrite vrun_cons, st_mark. cbn [bind]. rewrite <- app_assoc, (enc_dict_run _ F). cbn [app].
      rewrite vrun_cons, (st_dict _ _ _ _ _ _ _ _ (fst (dec_dict (kv :: kvs) h))).
      * reflexivity.
      * rewrite app_nil_r, rev_involutive. reflexivity.
      * apply dec_dict_keys_hashable.
Qed.

Definition dec_args (args : list arg) : list val * list hobj := dec_list args [].

Theorem args_eval_total m n args :
  plain2 m n = true -> args_eval m n args (fst (dec_args args)) (snd (dec_args args)).
Proof.
  intros P. unfold args_eval, call_setup, vm_init. cbn [app]. vsteps.
  rewrite encode_objs_run by (apply Forall_forall; intros a _; apply encode_obj_pushes).
  cbn [app]. vsteps. rewrite app_nil_r, rev_involutive. reflexivity.
Qed.

Lemma dec_args_consts cs : dec_args (map AConst cs) = (map VConst cs, []).
Proof.
  unfold dec_args. generalize (@nil hobj). induction cs as [|c r IH]; intros h; [reflexivity|].
  cbn [map dec_list dec fst snd]. rewrite IH. reflexivity.
Qed.

Lemma args_eval_consts m n cs :
  plain2 m n = true -> args_eval m n (map AConst cs) (map VConst cs) [].
Proof.
  intros P. pose proof (args_eval_total m n (map AConst cs) P) as H. rewrite dec_args_consts in H. exact H.
Qed.

Lemma encode_objs_consts cs : encode_objs (map AConst cs) = map OConst cs.
Proof. unfold encode_objs. induction cs as [|c r IH]; [reflexivity|]. cbn. rewrite IH. reflexivity. Qed.

Definition stop_free (q : list op) : bool := forallb (fun o => negb (is_stop o)) q.

Definition const_eq_dec : forall a b : const, {a = b} + {a <> b}.
Proof. decide equality; try apply string_dec; try apply Z.eq_dec; apply bool_dec. Defined.
Definition op_eq_dec : forall a b : op, {a = b} + {a <> b}.
Proof. decide equality; try apply string_dec; try apply Z.eq_dec; apply const_eq_dec. Defined.

Lemma stop_free_count a : stop_free a = true -> count_occ op_eq_dec a OStop = 0.
Proof.
  induction a as [|o r IH]; [reflexivity|]. cbn [stop_free forallb]. intros H.
  apply andb_prop in H. destruct H as [H1 H2]. cbn [count_occ].
  destruct (op_eq_dec o OStop) as [->|_]; [discriminate H1|]. apply IH. exact H2.
Qed.

Lemma stop_free_app a b : stop_free (a ++ b) = stop_free a && stop_free b.
Proof. apply forallb_app. Qed.

Lemma stop_free_repeat k : stop_free (repeat ONoop k) = true.
Proof. induction k; [reflexivity|exact IHk]. Qed.

Lemma stop_free_consts cs : stop_free (map OConst cs) = true.
Proof. induction cs; [reflexivity|exact IHcs]. Qed.

Lemma stop_free_skipn k a : stop_free a = true -> stop_free (skipn k a) = true.
Proof. intros H. rewrite <- (firstn_skipn k a), stop_free_app in H. apply andb_prop in H. tauto. Qed.
Lemma stop_free_firstn k a : stop_free a = true -> stop_free (firstn k a) = true.
Proof. intros H. rewrite <- (firstn_skipn k a), stop_free_app in H. apply andb_prop in H. tauto. Qed.

Lemma stop_free_encode_objs l :
  Forall (fun a => stop_free (encode_obj a) = true) l -> stop_free (encode_objs l) = true.
Proof.
  induction 1 as [|x r Hx _ IH]; [reflexivity|]. rewrite encode_objs_cons, stop_free_app, Hx. exact IH.
Qed.

Lemma stop_free_encode_obj : forall a, stop_free (encode_obj a) = true.
Proof.
  apply arg_ind'.
  - reflexivity.
  - intros l F. rewrite encode_AList. change (stop_free (encode_objs l ++ [OList]) = true).
    rewrite stop_free_app, andb_true_r. exact (stop_free_encode_objs l F).
  - intros kvs F. destruct kvs as [|kv kvs]; [reflexivity|]. rewrite encode_ADict_cons.
    change (stop_free (enc_dict (kv :: kvs) ++ [ODict]) = true). rewrite stop_free_app, andb_true_r.
    induction F as [|[k v] r Hx _ IH]; [reflexivity|]. cbn [enc_dict].
    change (stop_free (encode_obj v ++ enc_dict r) = true). rewrite stop_free_app. cbn [snd] in Hx. rewrite Hx. exact IH.
Qed.

Lemma stop_free_call_setup m n args : stop_free (call_setup m n (encode_objs args)) = true.
Proof.
  unfold call_setup. change (stop_free (encode_objs args ++ [OTuple]) = true). rewrite stop_free_app, andb_true_r.
  apply stop_free_encode_objs, Forall_forall. intros a _. apply stop_free_encode_obj.
Qed.

Lemma stop_free_append_ops m n cs pop : stop_free (append_ops m n cs pop) = true.
Proof.
  unfold append_ops. change (stop_free (map OConst cs ++ [OTuple; OReduce] ++ (if pop then [OPop] else [])) = true).
  rewrite stop_free_app, stop_free_consts. destruct pop; reflexivity.
Qed.

Lemma stop_free_callobj_ops fdef fname bc cargs : stop_free (call_on_object_ops fdef fname bc cargs) = true.
Proof.
  unfold call_on_object_ops. rewrite !stop_free_app, !stop_free_append_ops, stop_free_consts.
  destruct bc; [rewrite stop_free_app, stop_free_append_ops|rewrite stop_free_append_ops]; reflexivity.
Qed.

Lemma inject_parts_stop_free md q0 :
  match inject_parts md q0 with
  | Some parts => stop_free (fst parts) = true /\ stop_free (snd parts) = true
  | None => True
  end.
Proof.
  destruct md as [m n args rf rep|m n cs pop|magic index|fdef fname bc cargs]; cbn [inject_parts].
  - destruct rf, rep; cbn [fst snd]; rewrite ?stop_free_app, stop_free_call_setup; split; reflexivity.
  - split; [reflexivity|apply stop_free_append_ops].
  - exact I.
  - split; [reflexivity|apply stop_free_callobj_ops].
Qed.

Lemma single_stop_intro a : stop_free a = true -> count_occ op_eq_dec (a ++ [OStop]) OStop = 1.
Proof. intros H. rewrite count_occ_app, (stop_free_count a H). reflexivity. Qed.

Definition single_final_stop (p : list op) : bool := ends_with_stop p && stop_free (removelast p).

Lemma single_final_stop_inv p :
  single_final_stop p = true -> exists q, p = q ++ [OStop] /\ stop_free q = true.
Proof.
  unfold single_final_stop. intros H. apply andb_prop in H. destruct H as [E S].
  apply ends_with_stop_split in E. destruct E as (q & ->). rewrite removelast_last in S. eauto.
Qed.
