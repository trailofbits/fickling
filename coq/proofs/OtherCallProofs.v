(* C04, fourth floor: a call whose callee is not one of the four bad builtins is reported by
   OvertlyBadEvals at >= LIKELY_UNSAFE, unless the callee's NAME is also imported from a stdlib module
   ("likely safe" by name only).  The shared de-duplication set cannot suppress it: when OvertlyBadEvals
   runs the set holds import texts only, which have no parenthesis where every call text has one, unless
   BadCalls has reported, and that is OVERTLY_MALICIOUS already. *)
From Coq Require Import List String Ascii ZArith Bool Lia DecimalString.
From Verif Require Import Base BaseProofs Ops Interp RefVM Unparse Severity Analysis AnalysisProofs
  FloorProofs SimRel SimProofs.
Import ListNotations.
Local Open Scope nat_scope.
Local Open Scope list_scope.

Fixpoint has_paren (s : string) : bool :=
  match s with
  | EmptyString => false
  | String c r => Ascii.eqb c "("%char || has_paren r
  end.

Lemma has_paren_app a b : has_paren (a ++ b)%string = has_paren a || has_paren b.
Proof. induction a as [|c r IH]; cbn; [reflexivity|]. rewrite IH. apply orb_assoc. Qed.

Lemma before_paren_none s : has_paren s = false -> before_paren s = None.
Proof.
  induction s as [|c r IH]; cbn; [reflexivity|]. intros H. apply orb_false_iff in H. destruct H as [Hc Hr].
  rewrite Hc, (IH Hr). reflexivity.
Qed.

Lemma has_paren_shorten t : has_paren (shorten t) = has_paren t.
Proof.
  unfold shorten. destruct (32 <? py_len t); [|reflexivity].
  destruct (has_paren t) eqn:H; [|rewrite (before_paren_none t H); exact H].
  destruct (before_paren t); [|exact H]. rewrite has_paren_app. apply orb_true_r.
Qed.

Lemma has_paren_import m n : has_paren m = false -> has_paren n = false -> has_paren (imp_text (m, n)) = false.
Proof. intros Hm Hn. unfold imp_text. cbn [fst snd]. rewrite !has_paren_app, Hm, Hn. reflexivity. Qed.

(* C04 asks for a blank-free name of a called global; the floors do not need it, and fickling's own
   variable names are blank-free anyway *)
Lemma has_space_app a b : has_space (a ++ b)%string = has_space a || has_space b.
Proof.
  induction a as [|c r IH]; cbn; [reflexivity|]. rewrite IH.
  destruct (Ascii.eqb c " "%char); [reflexivity|]. destruct (Ascii.eqb c "010"%char); reflexivity.
Qed.

Lemma uint_nospace : forall u, has_space (NilEmpty.string_of_uint u) = false.
Proof. induction u; cbn; auto. Qed.

Lemma z_to_string_nospace z : has_space (z_to_string z) = false.
Proof.
  unfold z_to_string, NilZero.string_of_int, NilZero.string_of_uint, Z.to_int.
  destruct z as [|q|q]; [reflexivity| |].
  - destruct (Pos.to_uint q) eqn:E; try (rewrite <- E; apply uint_nospace). reflexivity.
  - destruct (Pos.to_uint q) eqn:E; cbn [has_space]; try (rewrite <- E; apply uint_nospace); reflexivity.
Qed.

Lemma var_name_nospace j : has_space (var_name j) = false.
Proof. unfold var_name, nat_to_string. rewrite has_space_app, z_to_string_nospace. reflexivity. Qed.

Section Other.
Variable crepr : const -> string.
Variable std : string -> bool.

Lemma has_paren_call_text ns fe args kw : has_paren (call_text crepr ns (ECall fe args kw)) = true.
Proof.
  unfold call_text. change UDEPTH with (S (S 38)). rewrite unparse_call_gen, has_paren_app. apply orb_true_r.
Qed.

Local Opaque unparse_expr shorten.

Lemma add_Forall (P : string -> Prop) t d : P t -> Forall P d -> Forall P (add t d).
Proof. intros Ht Hd. unfold add. destruct (mem_str t d); [exact Hd | constructor; assumption]. Qed.

Lemma nonstd_set (P : string -> Prop) : forall imps d,
  Forall (fun mn => P (shorten (imp_text mn))) imps -> Forall P d ->
  Forall P (snd (non_standard_imports std imps d)).
Proof.
  induction imps as [|mn r IH]; intros d Hi Hd; cbn [non_standard_imports]; [exact Hd|].
  inversion Hi as [|? ? Hmn Hr]; subst.
  destruct (std (fst mn)); [exact (IH d Hr Hd)|].
  rewrite snd_let. exact (IH _ Hr (add_Forall _ _ _ Hmn Hd)).
Qed.

Lemma unsafe_ml_set (P : string -> Prop) : forall imps d,
  Forall (fun mn => P (shorten (imp_text mn))) imps -> Forall P d ->
  Forall P (snd (unsafe_imports_ml imps d)).
Proof.
  induction imps as [|mn r IH]; intros d Hi Hd; cbn [unsafe_imports_ml]; [exact Hd|].
  inversion Hi as [|? ? Hmn Hr]; subst.
  rewrite snd_let. exact (IH _ Hr (add_Forall _ _ _ Hmn Hd)).
Qed.

Lemma bad_calls_set ns : forall calls d,
  snd (bad_calls_an crepr ns calls d) = d \/ reports (bad_calls_an crepr ns calls d) "OVERTLY_MALICIOUS".
Proof.
  induction calls as [|c r IH]; intros d; cbn [bad_calls_an]; [left; reflexivity|].
  destruct (bad_prefix _); [|apply IH].
  destruct (bad_calls_an crepr ns r _) as [fs d']. right. apply reports_head.
Qed.

Definition skipped (safe : list string) (c : expr) : bool :=
  match callee_id c with Some s => mem_str s safe | None => false end.

Lemma overt_reports ns safe : forall calls d c0,
  In c0 calls -> skipped safe c0 = false ->
  reports (overtly_bad_evals crepr ns safe calls d) "OVERTLY_MALICIOUS" \/
  reports (overtly_bad_evals crepr ns safe calls d) "LIKELY_UNSAFE" \/
  In (shorten (call_text crepr ns c0)) d.
Proof.
  induction calls as [|c r IH]; intros d c0 Hin Hs; [destruct Hin|].
  cbn [overtly_bad_evals]. fold (skipped safe c).
  destruct (skipped safe c) eqn:Sk.
  - destruct Hin as [->|Hin]; [congruence|]. apply IH; assumption.
  - set (t := shorten (call_text crepr ns c)). unfold add.
    destruct (overt_prefix t); [|destruct (mem_str t d) eqn:M].
    + destruct (overtly_bad_evals crepr ns safe r _) as [fs d']. left. apply reports_head.
    + (* already in the set: no report, set unchanged *)
      destruct Hin as [->|Hin]; [right; right; apply mem_str_In; exact M|].
      specialize (IH d c0 Hin Hs). destruct (overtly_bad_evals crepr ns safe r d) as [fs d']. exact IH.
    + destruct (overtly_bad_evals crepr ns safe r _) as [fs d']. right. left. apply reports_head.
Qed.

Lemma skipped_shadowed s fe args kw :
  skipped (s_safe std s) (ECall fe args kw) = true ->
  exists m' nm, callee_name fe = Some nm /\ In (SImport m' nm) (body s) /\ std m' = true.
Proof.
  unfold skipped. change (callee_id (ECall fe args kw)) with (callee_name fe).
  destruct (callee_name fe) as [nm|]; [|discriminate]. intros M.
  apply mem_str_In, in_map_iff in M. destruct M as ([m' n'] & E & Hf). cbn in E. subst n'.
  apply filter_In in Hf. destruct Hf as [Hi Hs]. exists m', nm.
  split; [reflexivity|]. split; [apply imps_body; exact Hi | exact Hs].
Qed.

Lemma call_text_in_set s t :
  (forall m n, In (SImport m n) (body s) -> has_paren m = false /\ has_paren n = false) ->
  has_paren t = true -> In t (snd (bad_calls_stage crepr std s)) ->
  reports (bad_calls_stage crepr std s) "OVERTLY_MALICIOUS".
Proof.
  intros Hident Ht Hd.
  destruct (bad_calls_set (nodes s) (s_calls s) (snd (unsafe_ml_stage std s))) as [E|Hrep]; [exfalso | exact Hrep].
  unfold bad_calls_stage in Hd. rewrite E in Hd.
  assert (Forall (fun mn => shorten (imp_text mn) <> t) (s_imps s)) as Hneq.
  { apply Forall_forall. intros [m n] Hi <-. apply imps_body in Hi. destruct (Hident m n Hi) as [Hm Hn].
    rewrite has_paren_shorten, (has_paren_import m n Hm Hn) in Ht. discriminate. }
  assert (Forall (fun x => x <> t) (snd (unsafe_ml_stage std s))) as Hset
    by (apply unsafe_ml_set; [exact Hneq|]; apply nonstd_set; [exact Hneq | constructor]).
  rewrite Forall_forall in Hset. exact (Hset t Hd eq_refl).
Qed.

Theorem body_floor_other_call protos s fs i fe args kw :
  analyze crepr std protos s = Some fs ->
  In (SAssignV i (ECall fe args kw)) (body s) ->
  is_setstate_call (ECall fe args kw) = false ->
  skipped (s_safe std s) (ECall fe args kw) = false ->
  (forall m n, In (SImport m n) (body s) -> has_paren m = false /\ has_paren n = false) ->
  3 <= doc_rank (verdict fs).
Proof.
  intros HA Hin Hss Hsk Hident.
  set (c0 := ECall fe args kw) in *.
  assert (In c0 (filter (fun c => negb (is_setstate_call c)) (s_calls s))) as Hc.
  { apply filter_In. split; [apply (call_in_calls _ i); exact Hin | rewrite Hss; reflexivity]. }
  destruct (overt_reports (nodes s) _ _ (snd (bad_calls_stage crepr std s)) c0 Hc Hsk) as [Hrep|[Hrep|Hd]].
  - apply Nat.le_trans with 5; [lia|].
    eapply floor_from_stage; [exact HA | do 3 right; left; reflexivity | exact Hrep | exact rank_OVERTLY_MALICIOUS].
  - eapply floor_from_stage; [exact HA | do 3 right; left; reflexivity | exact Hrep | exact rank_LIKELY_UNSAFE].
  - apply Nat.le_trans with 5; [lia|].
    eapply floor_from_stage; [exact HA | do 2 right; left; reflexivity | | exact rank_OVERTLY_MALICIOUS].
    apply call_text_in_set with (shorten (call_text crepr (nodes s) c0)); [exact Hident | | exact Hd].
    rewrite has_paren_shorten. apply has_paren_call_text.
Qed.

Theorem call_floor p first_var s v protos fs c args kw k :
  run_from p (fk_init first_var) = Ok s -> vrun_from p vm_init = Ok v ->
  analyze crepr std protos s = Some fs ->
  In (EvCall c args kw k) (log v) ->
  match c with VGlobal _ _ | VObj _ => True | _ => False end ->
  (forall m n, In (EvResolve m n) (log v) -> has_paren m = false /\ has_paren n = false) ->
  3 <= doc_rank (verdict fs) \/
  exists m' nm, In (EvResolve m' nm) (log v) /\ is_builtins m' = false /\ std m' = true /\
                ((exists m, c = VGlobal m nm) \/ (exists j, nm = var_name j)).
Proof.
  intros Hs Hv HA Hin Hc Hident.
  destruct (run_aligned p _ _ _ Hs Hv) as (al & Re & _).
  destruct (events_covered _ _ _ Re _ Hin) as (i & fe & es & kwe & Hst & Hf & _).
  assert ((exists m n, c = VGlobal m n /\ fe = EName n) \/ (exists j, fe = EVar j)) as Hfe
    by (inversion Hf; subst; try contradiction; eauto).
  destruct (skipped (s_safe std s) (ECall fe es kwe)) eqn:Sk.
  - right. destruct (skipped_shadowed _ _ _ _ Sk) as (m' & nm & Hnm & Hin' & Hstd).
    destruct (events_imports_sound _ _ _ Re m' nm Hin') as [Hr Hb].
    exists m', nm. repeat split; try assumption.
    destruct Hfe as [(m & n & -> & ->)|(j & ->)]; injection Hnm as <-; eauto.
  - left. apply (body_floor_other_call protos s fs i fe es kwe HA Hst); [ | exact Sk | ].
    + destruct Hfe as [(m & n & _ & ->)|(j & ->)]; reflexivity.
    + intros m n Hi. destruct (events_imports_sound _ _ _ Re m n Hi) as [Hr _]. exact (Hident m n Hr).
Qed.

End Other.
