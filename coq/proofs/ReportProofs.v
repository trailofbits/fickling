(* C19: every finding any analysis can construct is well formed (severity in the enum, a non-empty
   message, a JSON-serialisable trigger, consistent with its construction site in the live source), and
   the report built from them is JSON-serialisable; the loader's error carries that report. *)
From Coq Require Import List String ZArith Bool.
From Verif Require Import Base BaseProofs Ops Unparse Severity AnalysisTable MLTable ReportTable
  Analysis AnalysisProofs.
Import ListNotations.
Local Open Scope nat_scope.
Local Open Scope list_scope.

Definition trig_ok (t : trigger) : bool := match t with TOpaque _ => false | _ => true end.

Definition finding_good (f : finding) : Prop :=
  sev_of_name (f_sev f) <> None /\
  (exists m, f_msg f = Some m /\ m <> ""%string) /\
  trig_ok (f_trig f) = true /\
  (exists parts tr, find_site (fst (f_site f)) (snd (f_site f)) report_sites
                    = Some (f_sev f, (Some (f_analysis f), (parts, tr)))).

Definition has_lit (parts : list mpart) : bool :=
  existsb (fun p => match p with MLit s => negb (String.eqb s "") | MVar _ => false end) parts.
Definition tr_bound (n : nat) (tr : trsrc) : bool :=
  match tr with
  | TrNone => true
  | TrRef k => k <? n
  | TrTuple l => forallb (fun k => k <? n) l
  | TrOther _ => false
  end.
Definition site_check (cls : string) (idx : nat) (aname sev : string) (nenv : nat) : bool :=
  match find_site cls idx report_sites with
  | Some (sev', (Some an', (Some parts, tr))) =>
      String.eqb sev' sev && String.eqb an' aname && has_lit parts && tr_bound nenv tr &&
      match sev_of_name sev with Some _ => true | None => false end
  | _ => false
  end.

Lemma message_nonempty env parts :
  has_lit parts = true -> String.concat "" (map (fill_part env) parts) <> ""%string.
Proof.
  intros H E. apply concat_empty in E. unfold has_lit in H. apply existsb_exists in H.
  destruct H as (p & Hin & Hp). destruct p as [s|src]; [|discriminate].
  rewrite Forall_forall in E. specialize (E (fill_part env (MLit s)) (in_map _ _ _ Hin)).
  cbn in E. subst s. discriminate.
Qed.

Lemma nth_bound (env : benv) k : (k <? List.length env) = true -> exists b, nth_error env k = Some b.
Proof.
  intros H. apply Nat.ltb_lt, nth_error_Some in H. destruct (nth_error env k); [eauto | congruence].
Qed.

Lemma bind_all_bound (env : benv) : forall ks,
  forallb (fun k => k <? List.length env) ks = true -> exists l, bind_all env ks = Some l.
Proof.
  induction ks as [|x r IH]; cbn; [eauto|]. intros H. apply andb_true_iff in H. destruct H as [Hx Hr].
  destruct (nth_bound env x Hx) as (b & ->). destruct (IH Hr) as (l & ->). eauto.
Qed.

Lemma mkF_good cls idx aname sev tt env :
  site_check cls idx aname sev (List.length env) = true -> finding_good (mkF cls idx aname sev tt env).
Proof.
  unfold site_check, finding_good, mkF, site_message, site_trigger. cbn [f_sev f_msg f_trig f_site f_analysis fst snd].
  destruct (find_site cls idx report_sites) as [[sev' [[an'|] [[parts|] tr]]]|]; try discriminate.
  intros H. destruct (andb_prop _ _ H) as [H4 Hn]. destruct (andb_prop _ _ H4) as [H3 Ht].
  destruct (andb_prop _ _ H3) as [H2 Hl]. destruct (andb_prop _ _ H2) as [Hs Ha].
  apply String.eqb_eq in Hs, Ha. subst sev' an'.
  split; [destruct (sev_of_name sev); discriminate |].
  split; [eexists; split; [reflexivity | apply message_nonempty; exact Hl] |].
  split; [| eauto].
  destruct tr as [|k|ks|src]; cbn [tr_bound] in Ht.
  - reflexivity.
  - destruct (nth_bound env k Ht) as (b & ->). reflexivity.
  - destruct (bind_all_bound env ks Ht) as (l & ->). reflexivity.
  - discriminate.
Qed.

(* a literal list of findings, each checked against the table row of its construction site *)
Ltac sites := repeat (constructor; [apply mkF_good; vm_compute; reflexivity|]); constructor.

Section Good.
Variable crepr : const -> string.
Variable std : string -> bool.

Local Opaque mkF shorten unparse_expr.

Lemma good_dup : forall later seen, Forall finding_good (dup_protos seen later).
Proof.
  induction later as [|[i v] r IH]; intros seen; cbn [dup_protos]; constructor; [|apply IH].
  destruct (z_mem v seen); apply mkF_good; vm_compute; reflexivity.
Qed.

Lemma good_protos protos :
  Forall finding_good (fst (proto_findings protos)) /\ Forall finding_good (snd (proto_findings protos)).
Proof.
  unfold proto_findings. cbn [fst snd]. split.
  - destruct protos as [|[i v] r]; [constructor | apply good_dup].
  - apply Forall_flat_map, Forall_forall. intros iv _.
    destruct ((2 <=? snd iv)%Z && (0 <? fst iv)); sites.
Qed.

(* in every analysis a step puts a literal list of findings, chosen by a few tests, before those of the rest *)
Lemma good_step here (r : list finding * dedup) :
  Forall finding_good here -> Forall finding_good (fst r) ->
  Forall finding_good (fst (let '(fs, d') := r in (here ++ fs, d'))).
Proof. destruct r as [fs d']. intros Hh Hr. apply Forall_app. split; assumption. Qed.

Lemma good_nonstd : forall imps d, Forall finding_good (fst (non_standard_imports std imps d)).
Proof.
  induction imps as [|mn r IH]; intros d; cbn [non_standard_imports]; [constructor|].
  destruct (std (fst mn)); [apply IH|].
  apply good_step; [|apply IH]. destruct (mem_str _ d); sites.
Qed.

Lemma good_unsafe_ml : forall imps d, Forall finding_good (fst (unsafe_imports_ml imps d)).
Proof.
  induction imps as [|mn r IH]; intros d; cbn [unsafe_imports_ml]; [constructor|].
  specialize (IH (add (shorten (imp_text mn)) d)).
  destruct (unsafe_imports_ml r _) as [fs d']. cbn [fst] in *.
  apply Forall_app. split; [|apply Forall_app; split; [|exact IH]].
  - apply Forall_flat_map, Forall_forall. intros p _.
    destruct (mem_str p unsafe_modules); sites.
  - destruct (assoc_str (fst mn) unsafe_imports) as [names|].
    + destruct (mem_str (snd mn) names); sites.
    + destruct (String.eqb (snd mn) "eval"); sites.
Qed.

Lemma good_bad_calls ns : forall calls d, Forall finding_good (fst (bad_calls_an crepr ns calls d)).
Proof.
  induction calls as [|c r IH]; intros d; cbn [bad_calls_an]; [constructor|].
  destruct (bad_prefix _); [|apply IH].
  apply (good_step [_]); [sites | apply IH].
Qed.

Lemma good_overt ns safe : forall calls d, Forall finding_good (fst (overtly_bad_evals crepr ns safe calls d)).
Proof.
  induction calls as [|c r IH]; intros d; cbn [overtly_bad_evals]; [constructor|].
  destruct (match callee_id c with Some s => mem_str s safe | None => false end); [apply IH|].
  apply good_step; [|apply IH].
  destruct (overt_prefix _); [sites|]. destruct (mem_str _ d); sites.
Qed.

Lemma good_unsafe_imports : forall imps d, Forall finding_good (fst (unsafe_imports_an imps d)).
Proof.
  induction imps as [|mn r IH]; intros d; cbn [unsafe_imports_an]; [constructor|].
  destruct (mem_str (fst mn) unsafe_imports_modules || String.eqb (snd mn) "eval"); [|apply IH].
  apply (good_step [_]); [sites | apply IH].
Qed.

Lemma good_unused ns : forall un d, Forall finding_good (fst (unused_variables_an crepr ns un d)).
Proof.
  induction un as [|[i e] r IH]; intros d; cbn [unused_variables_an]; [constructor|].
  apply (good_step [_]); [sites | apply IH].
Qed.

Lemma good_ml : forall imps d, Forall finding_good (fst (ml_allowlist_an imps d)).
Proof.
  induction imps as [|mn r IH]; intros d; cbn [ml_allowlist_an]; [constructor|].
  apply good_step; [|apply IH]. destruct (mem_str _ d); [sites|].
  destruct (assoc_str (fst mn) ml_allowlist) as [names|]; [destruct (mem_str (snd mn) names)|]; sites.
Qed.

Theorem analyze_good protos s :
  exists fs, analyze crepr std protos s = Some fs /\ Forall finding_good fs.
Proof.
  eexists. split; [apply analyze_eq|].
  destruct (good_protos protos) as [G1 G2].
  repeat (apply Forall_app; split); try assumption; try constructor.
  - exact (good_nonstd _ _).
  - exact (good_unsafe_ml _ _).
  - exact (good_bad_calls _ _ _).
  - exact (good_overt _ _ _ _).
  - exact (good_unsafe_imports _ _).
  - exact (good_unused _ _ _).
  - exact (good_ml _ _).
Qed.

End Good.

Lemma json_of_bvals_ok l : forallb json_ok (map json_of_bval l) = true.
Proof. induction l as [|[s|z] r IH]; cbn; auto. Qed.

Lemma trigger_json_ok t : trig_ok t = true -> trigger_truthy t = true -> json_ok (json_of_trigger t) = true.
Proof.
  destruct t as [|[s|z]|l|src]; cbn; intros H1 H2; try discriminate; auto.
  apply json_of_bvals_ok.
Qed.

Lemma jset_ok k v : forall l,
  json_ok v = true -> forallb (fun kv => json_ok (snd kv)) l = true ->
  forallb (fun kv => json_ok (snd kv)) (jset k v l) = true.
Proof.
  induction l as [|[k' v'] r IH]; intros Hv Hl; cbn [jset].
  - cbn. rewrite Hv. reflexivity.
  - cbn in Hl. apply andb_true_iff in Hl. destruct Hl as [H1 H2].
    destruct (String.eqb k k'); cbn; [rewrite Hv, H2 | rewrite H1, IH]; auto.
Qed.

Lemma detailed_entries_ok : forall fs acc,
  Forall finding_good fs -> forallb (fun kv => json_ok (snd kv)) acc = true ->
  forallb (fun kv => json_ok (snd kv))
    (fold_left (fun acc f => if trigger_truthy (f_trig f)
                             then jset (f_analysis f) (json_of_trigger (f_trig f)) acc else acc) fs acc) = true.
Proof.
  induction fs as [|f r IH]; intros acc HF Hacc; cbn [fold_left]; [exact Hacc|].
  inversion HF as [|? ? Hf Hr]; subst. apply IH; [exact Hr|].
  destruct (trigger_truthy (f_trig f)) eqn:T; [|exact Hacc].
  apply jset_ok; [|exact Hacc]. destruct Hf as (_ & _ & Ht & _). apply trigger_json_ok; assumption.
Qed.

Theorem report_json_ok v fs : Forall finding_good fs -> json_ok (to_dict v fs) = true.
Proof.
  intros HF. unfold to_dict. cbn [json_ok forallb snd]. rewrite andb_true_r.
  unfold detailed_results, detailed_entries.
  pose proof (detailed_entries_ok fs [] HF eq_refl) as H.
  destruct (fold_left _ fs []) as [|e es]; [reflexivity|].
  cbn [json_ok forallb snd]. rewrite andb_true_r. exact H.
Qed.

Theorem loader_same_report thr fs info : loader thr fs = Unsafe info -> info = to_dict default_verbosity fs.
Proof.
  unfold loader. destruct (sev_le (verdict fs) thr); [discriminate|]. intros H. inversion H. reflexivity.
Qed.

Theorem loader_refuses thr fs :
  sev_le (verdict fs) thr = false -> loader thr fs = Unsafe (to_dict default_verbosity fs).
Proof. unfold loader. intros ->. reflexivity. Qed.
