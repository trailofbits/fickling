(* Truncation invariance of the token loop, from CodecProofs' locality lemmas, and what C13 needs
   from it: loading the bytes dumps() returns for a parsed pickle succeeds, stops at their end, and
   returns the same opcodes at shifted positions. *)
From Coq Require Import List Lia.
From Verif Require Import Base BaseProofs Codec CodecProofs.
Import ListNotations.
Local Open Scope nat_scope.
Local Open Scope list_scope.

Lemma line_len_firstn : forall l n m, line_len l = Some n -> n <= m -> line_len (firstn m l) = Some n.
Proof. intros l n m H L. exact (line_len_local _ _ _ H (firstn_firstn_le _ _ _ L)). Qed.

Lemma arg_len_firstn : forall k args n m, arg_len k args = Ok n -> n <= m ->
  arg_len k (firstn m args) = Ok n.
Proof. intros k args n m H L. exact (arg_len_local _ _ _ _ H (firstn_firstn_le _ _ _ L)). Qed.

Lemma next_token_firstn : forall rest row len m, next_token rest = Ok (row, len) -> len <= m ->
  next_token (firstn m rest) = Ok (row, len).
Proof. intros rest row len m H L. exact (next_token_local _ _ _ _ H (firstn_firstn_le _ _ _ L)). Qed.

Lemma genops_trunc : forall fuel rest pos ts, genops fuel rest pos = (ts, TDone) ->
  forall fuel' m, List.length ts <= fuel' -> sum_len ts <= m ->
  genops fuel' (firstn m rest) pos = (ts, TDone).
Proof.
  intros fuel rest pos ts H fuel' m LF LM. exact (genops_local _ _ _ _ H _ _ (firstn_firstn_le _ _ _ LM) LF).
Qed.

Lemma map_shift_tok_length : forall k ts, sum_len (map (shift_tok k) ts) = sum_len ts.
Proof. intros k ts. apply sum_len_map. reflexivity. Qed.

Lemma load_stream_truncate : forall buf start ops e,
  load_stream buf start = LOk (ops, e) ->
  exists p0, complete (read_at buf start (e - start)) p0 /\ ops = map (shift_opc start) p0.
Proof.
  intros buf start ops e H. destruct (load_stream_exact _ _ _ _ H) as (_ & B & _).
  rewrite load_stream_skipn in H.
  destruct (load_stream (skipn start buf) 0) as [[p0 n]|x] eqn:L; [|discriminate].
  injection H as <- <-. exists p0. split; [|reflexivity].
  replace (start + n - start) with n by lia. unfold complete, read_at.
  rewrite firstn_length_le by (rewrite skipn_length; lia).
  apply (load_stream_local _ _ _ _ L), firstn_firstn_le. lia.
Qed.

Lemma reparse_exact : forall buf start ops e,
  load_stream buf start = LOk (ops, e) ->
  exists d p0,
    dumps ops = Ok d /\ d = read_at buf start (e - start) /\
    load_stream d 0 = LOk (p0, List.length d) /\
    ops = map (shift_opc start) p0 /\
    dumps p0 = Ok d.
Proof.
  intros buf start ops e H.
  destruct (load_stream_truncate _ _ _ _ H) as (p0 & CP & EO).
  destruct (load_stream_exact _ _ _ _ H) as (D & _).
  exists (read_at buf start (e - start)), p0.
  split; [exact D|]. split; [reflexivity|]. split; [exact CP|]. split; [exact EO|].
  rewrite <- (dumps_shift start), <- EO. exact D.
Qed.

(* Pickled.load(p.dumps()), for each of Pickled.load's three kinds of input *)
Lemma reparse_model : forall k bs off r,
  load_model k bs off = LOk r ->
  exists d r' sh,
    dumps (l_ops r) = Ok d /\
    load_model KBytes d 0 = LOk r' /\
    l_end r' = List.length d /\
    l_ops r = map (shift_opc sh) (l_ops r') /\
    dumps (l_ops r') = Ok d.
Proof.
  intros k bs off r H. apply load_model_stream in H. destruct H as [LS _].
  destruct (reparse_exact _ _ _ _ LS) as (d & p0 & D & _ & L & EO & D0).
  exists d, (mkLoaded p0 (List.length d) None). eexists.
  unfold load_model. rewrite L. cbn [l_ops l_end]. repeat split; eassumption.
Qed.
