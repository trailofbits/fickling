(* The Const model (C15): the number and text codecs with what reads each back, one pickletools
   token per shape of argument reader, encode() per class of the table, the class
   ConstantOpcode.new settles on, the unpickler stepped over the built bytes. *)
From Coq Require Import List String ZArith NArith Bool Lia DecimalString.
From Coq.Strings Require Import Byte.
From Verif Require Import Base BaseProofs ConstTable Codec Const.
Import ListNotations.
Local Open Scope Z_scope.
Local Open Scope list_scope.

Ltac andb_split H := apply andb_true_iff in H; destruct H as [?H ?H].

Lemma COk_inj {A} (a b : A) : COk a = COk b -> a = b.
Proof. intros [=]; auto. Qed.

Lemma cbind_ok {A B} (r : cres A) (f : A -> cres B) b :
  cbind r f = COk b -> exists a, r = COk a /\ f a = COk b.
Proof. destruct r; simpl; intros; [eauto | discriminate]. Qed.

Lemma to_N_byte_of_N n : (n < 256)%N -> Byte.to_N (byte_of_N n) = n.
Proof.
  intros H. unfold byte_of_N. destruct (Byte.of_N n) eqn:E.
  - apply Byte.to_of_N; assumption.
  - apply Byte.of_N_None_iff in E. lia.
Qed.

Lemma byte_of_N_to_N b : byte_of_N (Byte.to_N b) = b.
Proof. unfold byte_of_N. rewrite Byte.of_to_N. reflexivity. Qed.

Lemma le_bytes_length w n : List.length (le_bytes w n) = w.
Proof. revert n; induction w; intros; simpl; auto. Qed.

Lemma le_N_le_bytes w n : le_N (le_bytes w n) = (n mod 256 ^ N.of_nat w)%N.
Proof.
  revert n; induction w; intros n.
  - simpl. rewrite N.mod_1_r. reflexivity.
  - cbn [le_bytes le_N]. rewrite IHw. rewrite to_N_byte_of_N by (apply N.mod_lt; lia).
    rewrite Nat2N.inj_succ, N.pow_succ_r by lia.
    rewrite N.mod_mul_r by (try apply N.pow_nonzero; lia). lia.
Qed.

(* so a range premise carries the sign of the width with it *)
Lemma pow2_pos_exp e : 0 < 2 ^ e -> 0 <= e.
Proof.
  intros H. destruct (Z.lt_ge_cases e 0) as [N | P]; [| exact P].
  rewrite (Z.pow_neg_r 2 e N) in H. lia.
Qed.

Lemma le_N_le_bytes_small w z :
  0 <= z < 2 ^ (8 * w) -> Z.of_N (le_N (le_bytes (Z.to_nat w) (Z.to_N z))) = z.
Proof.
  intros Hz. assert (Hw : 0 <= 8 * w) by (apply pow2_pos_exp; lia). rewrite le_N_le_bytes, N.mod_small; [apply Z2N.id; lia |].
  apply N2Z.inj_lt. rewrite Z2N.id, N2Z.inj_pow, nat_N_Z, Z2Nat.id by lia.
  change (Z.of_N 256) with (2 ^ 8). rewrite <- Z.pow_mul_r by lia. lia.
Qed.

Lemma bytes_eqb_eq a b : bytes_eqb a b = true <-> a = b.
Proof.
  revert b; induction a; destruct b; simpl; split; intros H; try discriminate; auto.
  - apply andb_true_iff in H as [H1 H2]. apply Byte.byte_dec_bl in H1. apply IHa in H2. congruence.
  - inversion H; subst. apply andb_true_iff; split; [apply Byte.byte_dec_lb; reflexivity | apply IHa; reflexivity].
Qed.

Lemma bytes_eqb_refl a : bytes_eqb a a = true.
Proof. apply bytes_eqb_eq; reflexivity. Qed.

Lemma blen_nonneg s : 0 <= blen s.
Proof. unfold blen. lia. Qed.

Lemma dec_roundtrip z : parse_dec (dec_bytes z) = Some z.
Proof.
  unfold parse_dec, dec_bytes, bytes_of_str.
  rewrite string_of_list_byte_of_string, z_of_to_string.
  destruct (list_byte_of_string (z_to_string z)) eqn:E; auto.
  assert (H : string_of_list_byte (list_byte_of_string (z_to_string z)) = ""%string) by (rewrite E; reflexivity).
  rewrite string_of_list_byte_of_string in H.
  pose proof (z_of_to_string z) as H2. rewrite H in H2. discriminate.
Qed.

(* used at "00" and "01", INT's spellings of the bools *)
Lemma dec_bytes_neq z l : option_map dec_bytes (parse_dec l) <> Some l -> bytes_eqb (dec_bytes z) l = false.
Proof.
  intros N. destruct (bytes_eqb (dec_bytes z) l) eqn:E; auto. apply bytes_eqb_eq in E. subst l.
  rewrite dec_roundtrip in N. contradiction N. reflexivity.
Qed.

Definition dec_char (b : byte) : bool := existsb (Byte.eqb b) (bytes_of_str "-0123456789").

Lemma uint_chars d : Forall (fun b => dec_char b = true) (list_byte_of_string (NilEmpty.string_of_uint d)).
Proof. induction d; simpl; constructor; auto. Qed.

Lemma dec_chars z : Forall (fun b => dec_char b = true) (dec_bytes z).
Proof.
  assert (U : forall u, Forall (fun b => dec_char b = true) (list_byte_of_string (NilZero.string_of_uint u))).
  { intros u. destruct u; try apply uint_chars. repeat constructor. }
  unfold dec_bytes, bytes_of_str, z_to_string.
  destruct (Z.to_int z); simpl; [apply U | constructor; [reflexivity | apply U]].
Qed.

Lemma dec_avoids b z : dec_char b = false -> ~ In b (dec_bytes z).
Proof. intros N H. rewrite (proj1 (Forall_forall _ _) (dec_chars z) b H) in N. discriminate. Qed.

Definition not_nl (b : byte) : Prop := b <> nl.

Lemma dec_no_nl z : Forall not_nl (dec_bytes z).
Proof. apply Forall_forall. intros b H ->. exact (dec_avoids nl z eq_refl H). Qed.

Lemma split_line_app l rest : Forall not_nl l -> split_line (l ++ nl :: rest) = Some (l, rest).
Proof.
  induction 1; simpl.
  - reflexivity.
  - destruct (Byte.eqb x nl) eqn:E.
    + apply Byte.byte_dec_bl in E. contradiction.
    + rewrite IHForall. reflexivity.
Qed.

Lemma pack_int_inv w sg z bs : pack_int w sg z = COk bs ->
  bs = le_bytes (Z.to_nat w) (Z.to_N (z mod 2 ^ (8 * w))) /\
  if sg then - 2 ^ (8 * w - 1) <= z < 2 ^ (8 * w - 1) else 0 <= z < 2 ^ (8 * w).
Proof.
  unfold pack_int. cbv zeta. destruct sg;
    (destruct (_ && _) eqn:E; [| discriminate]); intros H; apply COk_inj in H; subst bs; andb_split E;
    (split; [| lia]); [| rewrite Z.mod_small by lia]; reflexivity.
Qed.

Lemma pack_int_le w sg z bs :
  (sg = true -> 0 <= z) -> pack_int w sg z = COk bs ->
  List.length bs = Z.to_nat w /\ Z.of_N (le_N bs) = z /\ 0 <= z < 2 ^ (8 * w) /\
  (sg = true -> z < 2 ^ (8 * w - 1)).
Proof.
  intros Hz H. apply pack_int_inv in H as [-> R].
  assert (P : 2 ^ (8 * w - 1) <= 2 ^ (8 * w)) by (apply Z.pow_le_mono_r; lia).
  assert (B : 0 <= z < 2 ^ (8 * w) /\ (sg = true -> z < 2 ^ (8 * w - 1))).
  { destruct sg; [specialize (Hz eq_refl); split; [| intros _]; lia | split; [exact R | discriminate]]. }
  rewrite Z.mod_small, le_bytes_length, le_N_le_bytes_small by tauto. tauto.
Qed.

Lemma pack_unsigned_read w z bs :
  (w = 1 \/ w = 2 \/ w = 4 \/ w = 8) ->
  pack_int w false z = COk bs ->
  List.length bs = Z.to_nat w /\ Z.of_N (le_N bs) = z.
Proof.
  intros _ H. destruct (pack_int_le w false z bs) as (L & V & _); [discriminate | exact H | auto].
Qed.

Lemma decode_long_signed w z :
  - 2 ^ (8 * w - 1) <= z < 2 ^ (8 * w - 1) ->
  decode_long (le_bytes (Z.to_nat w) (Z.to_N (z mod 2 ^ (8 * w)))) = z.
Proof.
  intros Hz. assert (Hw : 0 <= 8 * w - 1) by (apply pow2_pos_exp; lia).
  unfold decode_long. rewrite le_bytes_length, Z2Nat.id by lia.
  assert (P : 2 ^ (8 * w) = 2 * 2 ^ (8 * w - 1)).
  { rewrite <- Z.pow_succ_r by lia. f_equal. lia. }
  assert (M : 0 <= z mod 2 ^ (8 * w) < 2 ^ (8 * w)) by (apply Z.mod_pos_bound; lia).
  rewrite le_N_le_bytes_small by lia.
  destruct (le_bytes (Z.to_nat w) (Z.to_N (z mod 2 ^ (8 * w)))) eqn:E.
  { apply (f_equal (@List.length byte)) in E. rewrite le_bytes_length in E. simpl in E. lia. }
  clear E.
  destruct (Z_lt_ge_dec z 0).
  - replace (z mod 2 ^ (8 * w)) with (z + 2 ^ (8 * w)).
    2:{ symmetry. rewrite <- (Z_mod_plus_full z 1). rewrite Z.mul_1_l. apply Z.mod_small. lia. }
    destruct (z + 2 ^ (8 * w) <? 2 ^ (8 * w - 1)) eqn:C; [apply Z.ltb_lt in C | ]; lia.
  - rewrite Z.mod_small by lia.
    destruct (z <? 2 ^ (8 * w - 1)) eqn:C; [| apply Z.ltb_ge in C]; lia.
Qed.

Lemma pack_signed_read w z bs :
  pack_int w true z = COk bs -> List.length bs = Z.to_nat w /\ decode_long bs = z.
Proof.
  intros H. apply pack_int_inv in H as [-> R].
  split; [apply le_bytes_length | apply decode_long_signed; assumption].
Qed.

Lemma long_nbytes_fits z : z <> 0 -> - 2 ^ (8 * long_nbytes z - 1) <= z < 2 ^ (8 * long_nbytes z - 1).
Proof.
  intros Hz. unfold long_nbytes, bit_length. rewrite (proj2 (Z.eqb_neq z 0) Hz).
  set (k := Z.log2 (Z.abs z) + 1).
  assert (A : 0 < Z.abs z) by lia.
  pose proof (Z.log2_spec _ A) as [L1 L2]. pose proof (Z.log2_nonneg (Z.abs z)) as L0.
  assert (Hk : Z.abs z < 2 ^ k) by (unfold k; rewrite <- Z.add_1_r in L2; exact L2).
  set (n0 := k / 8 + 1).
  (* confined to this step: it slows every lia it reaches *)
  assert (Hn0 : k <= 8 * n0 - 1) by (unfold n0; Z.to_euclidean_division_equations; lia).
  assert (P : 2 ^ k <= 2 ^ (8 * n0 - 1)) by (apply Z.pow_le_mono_r; lia).
  unfold k in *. lia.
Qed.

Lemma decode_encode_long z : decode_long (encode_long z) = z.
Proof.
  unfold encode_long. destruct (Z.eqb_spec z 0); [subst; reflexivity |].
  apply decode_long_signed, long_nbytes_fits. assumption.
Qed.

Ltac nlt :=
  repeat match goal with
         | |- context[(?a <? ?b)%N] => destruct (N.ltb_spec a b); try lia
         | |- context[(?a =? ?b)%N] => destruct (N.eqb_spec a b); try lia
         | |- context[(?a <=? ?b)%N] => destruct (N.leb_spec a b); try lia
         end.

Lemma byte_eq_of_N b n : Byte.to_N b = n -> b = byte_of_N n.
Proof. intros <-. symmetry. apply byte_of_N_to_N. Qed.

Lemma cont_bits_case c :
  cont_bits c = None \/ exists x, (x < 64)%N /\ cont_bits c = Some x /\ c = byte_of_N (128 + x).
Proof.
  unfold cont_bits. destruct ((128 <=? to_N c) && (to_N c <? 192))%N eqn:E; [right | left; reflexivity].
  apply andb_true_iff in E as [E1 E2]. apply N.leb_le in E1. apply N.ltb_lt in E2.
  exists (to_N c - 128)%N. repeat split; [lia | apply byte_eq_of_N; lia].
Qed.

Lemma div64 q x : (x < 64 -> (q * 64 + x) / 64 = q)%N.
Proof. intros H. symmetry. apply (N.div_unique _ _ _ x H). lia. Qed.

Lemma mod64 q x : (x < 64 -> (q * 64 + x) mod 64 = x)%N.
Proof. intros H. symmetry. apply (N.mod_unique _ _ q _ H). lia. Qed.

(* lead byte 0xC0+h, 0xE0+h or 0xF0+h, continuation bytes 0x80+x *)
Lemma utf8_cp_2 h x : (h < 32 -> x < 64 -> 128 <= h * 64 + x ->
  utf8_cp (h * 64 + x) = [byte_of_N (192 + h); byte_of_N (128 + x)])%N.
Proof. intros. unfold utf8_cp. nlt. rewrite div64, mod64 by assumption. reflexivity. Qed.

Lemma utf8_cp_3 h x y : (h < 16 -> x < 64 -> y < 64 -> 2048 <= h * 4096 + x * 64 + y ->
  utf8_cp (h * 4096 + x * 64 + y) = [byte_of_N (224 + h); byte_of_N (128 + x); byte_of_N (128 + y)])%N.
Proof.
  intros. replace (h * 4096 + x * 64 + y)%N with ((h * 64 + x) * 64 + y)%N in * by lia.
  unfold utf8_cp. nlt. change 4096%N with (64 * 64)%N.
  rewrite <- !N.div_div by discriminate. rewrite !div64, !mod64 by assumption. reflexivity.
Qed.

Lemma utf8_cp_4 h x y z : (h < 8 -> x < 64 -> y < 64 -> z < 64 -> 65536 <= h * 262144 + x * 4096 + y * 64 + z ->
  utf8_cp (h * 262144 + x * 4096 + y * 64 + z) =
  [byte_of_N (240 + h); byte_of_N (128 + x); byte_of_N (128 + y); byte_of_N (128 + z)])%N.
Proof.
  intros. replace (h * 262144 + x * 4096 + y * 64 + z)%N with (((h * 64 + x) * 64 + y) * 64 + z)%N in * by lia.
  unfold utf8_cp. nlt. change 262144%N with (64 * 64 * 64)%N. change 4096%N with (64 * 64)%N.
  rewrite <- !N.div_div by discriminate. rewrite !div64, !mod64 by assumption. reflexivity.
Qed.

Lemma utf8_next_inv s cp r :
  utf8_next s = Some (cp, r) ->
  s = utf8_cp cp ++ r /\ (cp <= 1114111)%N /\ (List.length r < List.length s)%nat.
Proof.
  destruct s as [|b s1]; [discriminate |]. cbn [utf8_next].
  pose proof (byte_of_N_to_N b) as Eb. generalize dependent (Byte.to_N b). intros n Eb.
  (* one goal per length, told by the lead byte *)
  destruct (N.ltb_spec n 128); [| destruct (N.ltb_spec n 192); [discriminate |]; destruct (N.ltb_spec n 224);
    [| destruct (N.ltb_spec n 240); [| destruct (N.ltb_spec n 248); [| discriminate]]]].
  2: destruct s1 as [|c1 r1]; [discriminate |].
  3: destruct s1 as [|c1 [|c2 r2]]; try discriminate.
  4: destruct s1 as [|c1 [|c2 [|c3 r3]]]; try discriminate.
  2-4: destruct (cont_bits_case c1) as [-> | (x & X & -> & ->)]; [discriminate |].
  3-4: destruct (cont_bits_case c2) as [-> | (y & Y & -> & ->)]; [discriminate |].
  4: destruct (cont_bits_case c3) as [-> | (z & Z & -> & ->)]; [discriminate |].
  (* overlong forms, values above U+10FFFF *)
  2-4: nlt; try discriminate.
  all: intros [= <- <-]; (split; [| split; [lia | simpl; lia]]).
  - unfold utf8_cp. nlt. rewrite Eb. reflexivity.
  - rewrite utf8_cp_2 by lia. replace (192 + (n - 192))%N with n by lia. rewrite Eb. reflexivity.
  - rewrite utf8_cp_3 by lia. replace (224 + (n - 224))%N with n by lia. rewrite Eb. reflexivity.
  - rewrite utf8_cp_4 by lia. replace (240 + (n - 240))%N with n by lia. rewrite Eb. reflexivity.
Qed.

Lemma utf8_decode_inv s cps : utf8_decode s = Some cps ->
  flat_map utf8_cp cps = s /\ Forall (fun n => (n <= 1114111)%N) cps /\ (List.length cps <= List.length s)%nat.
Proof.
  unfold utf8_decode. generalize (List.length s) at 1. intros fuel. revert s cps.
  induction fuel; intros s cps H; destruct s as [|b s1]; cbn [utf8_decode_f] in H;
    try (inversion H; subst; simpl; auto; fail); try discriminate.
  destruct (utf8_next (b :: s1)) as [[cp r]|] eqn:E; [| discriminate].
  destruct (utf8_decode_f fuel r) as [t|] eqn:D; [| discriminate]. inversion H; subst; clear H.
  apply utf8_next_inv in E as [E1 [E2 E3]]. apply IHfuel in D as [D1 [D2 D3]].
  split; [| split].
  - cbn [flat_map]. rewrite D1. symmetry. exact E1.
  - constructor; assumption.
  - simpl in *. lia.
Qed.

Lemma latin1_roundtrip s l : latin1_of_utf8 s = Some l ->
  latin1_to_utf8 l = s /\ (List.length l <= List.length s)%nat.
Proof.
  unfold latin1_of_utf8. destruct (utf8_decode s) as [cps|] eqn:D; [| discriminate].
  destruct (forallb (fun n => (n <? 256)%N) cps) eqn:F; [| discriminate]. intros [= <-].
  apply utf8_decode_inv in D as [D1 [_ D3]]. split; [| rewrite map_length; assumption].
  rewrite <- D1. unfold latin1_to_utf8. clear D1 D3.
  induction cps; simpl in *; auto. apply andb_true_iff in F as [F1 F2]. apply N.ltb_lt in F1.
  rewrite to_N_byte_of_N by assumption. rewrite IHcps by assumption. reflexivity.
Qed.

(* checked on each of the sixteen digits *)
Lemma hexv_hexd d : (d < 16)%N -> hexv (hexd d) = Some d.
Proof.
  intros H. pose proof (below_forallb (fun k => match hexv (hexd (N.of_nat k)) with
                                                | Some x => N.eqb x (N.of_nat k) | None => false end)
                                      16 eq_refl (N.to_nat d) ltac:(lia)) as T.
  cbv beta in T. rewrite N2Nat.id in T. destruct (hexv (hexd d)); [| discriminate]. apply N.eqb_eq in T. subst. reflexivity.
Qed.

Lemma hexd_no_nl d : (d < 16)%N -> not_nl (hexd d).
Proof.
  intros H. pose proof (below_forallb (fun k => negb (Byte.eqb (hexd (N.of_nat k)) nl))
                                      16 eq_refl (N.to_nat d) ltac:(lia)) as T.
  cbv beta in T. rewrite N2Nat.id in T. apply negb_true_iff in T. intros E. rewrite E in T. discriminate.
Qed.

Lemma byte_eqb_neq a b : a <> b -> Byte.eqb a b = false.
Proof. intros H. destruct (Byte.eqb a b) eqn:E; auto. apply Byte.byte_dec_bl in E. contradiction. Qed.

Lemma byte_of_N_inj_neq n m : (n < 256)%N -> (m < 256)%N -> n <> m -> byte_of_N n <> byte_of_N m.
Proof. intros Hn Hm H E. apply H. rewrite <- (to_N_byte_of_N n), <- (to_N_byte_of_N m) by assumption. rewrite E. reflexivity. Qed.

Lemma raw_unescape_plain f b R : b <> x5c ->
  raw_unescape (S f) (b :: R) false = doc t <- raw_unescape f R false; COk (utf8_cp (Byte.to_N b) ++ t).
Proof. intros H. cbn [raw_unescape]. rewrite (byte_eqb_neq _ _ H). reflexivity. Qed.

Lemma hex4_digits n : (n < 65536)%N ->
  hexv (hexd ((n / 4096) mod 16)) = Some ((n / 4096) mod 16)%N /\
  hexv (hexd ((n / 256) mod 16)) = Some ((n / 256) mod 16)%N /\
  hexv (hexd ((n / 16) mod 16)) = Some ((n / 16) mod 16)%N /\
  hexv (hexd (n mod 16)) = Some (n mod 16)%N /\
  ((n / 4096) mod 16 * 4096 + (n / 256) mod 16 * 256 + (n / 16) mod 16 * 16 + n mod 16 = n)%N.
Proof.
  intros H. repeat split; try (apply hexv_hexd; apply N.mod_lt; lia).
  (* three divisions by 16; the fourth digit is n / 4096 itself *)
  pose proof (N.div_mod' n 16) as D1. pose proof (N.div_mod' (n / 16) 16) as D2.
  pose proof (N.div_mod' (n / 256) 16) as D3. rewrite N.div_div in D2, D3 by discriminate.
  change (16 * 16)%N with 256%N in D2. change (256 * 16)%N with 4096%N in D3.
  rewrite (N.mod_small (n / 4096) 16) by (apply N.div_lt_upper_bound; lia). lia.
Qed.

Lemma esc_cp_cases cp :
  ((cp < 65536)%N /\ esc_cp cp = x5c :: x75 :: hex4 cp) \/
  ((cp < 256)%N /\ cp <> 92%N /\ cp <> 10%N /\ esc_cp cp = [byte_of_N cp]) \/
  ((65536 <= cp)%N /\ esc_cp cp = x5c :: x55 :: hex4 (cp / 65536) ++ hex4 (cp mod 65536)).
Proof.
  unfold esc_cp. destruct ((cp =? 92) || (cp =? 0) || (cp =? 10) || (cp =? 13) || (cp =? 26))%N eqn:S1.
  { left. split; [| reflexivity]. repeat (apply orb_true_iff in S1 as [S1|S1]); apply N.eqb_eq in S1; lia. }
  repeat (apply orb_false_iff in S1 as [S1 ?]).
  destruct (N.ltb_spec cp 256). { right; left. repeat split; try assumption; apply N.eqb_neq; assumption. }
  destruct (N.ltb_spec cp 65536); [left | right; right]; auto.
Qed.

Lemma raw_unescape_hex4 f n R : (n < 65536)%N ->
  raw_unescape (S f) (x5c :: x75 :: hex4 n ++ R) false = doc t <- raw_unescape f R false; COk (utf8_cp n ++ t).
Proof.
  intros L. destruct (hex4_digits n L) as (D1 & D2 & D3 & D4 & D5). unfold hex4.
  cbn -[utf8_cp N.mul N.add N.div N.modulo hexv hexd]. rewrite D1, D2, D3, D4, D5. reflexivity.
Qed.

Lemma raw_unescape_hex8 f hi lo R : (lo < 65536)%N -> (hi * 65536 + lo <= 1114111)%N ->
  raw_unescape (S f) (x5c :: x55 :: hex4 hi ++ hex4 lo ++ R) false =
  doc t <- raw_unescape f R false; COk (utf8_cp (hi * 65536 + lo) ++ t).
Proof.
  intros L2 L. assert (L1 : (hi < 65536)%N) by lia. destruct (hex4_digits hi L1) as (D1 & D2 & D3 & D4 & D5).
  destruct (hex4_digits lo L2) as (E1 & E2 & E3 & E4 & E5). unfold hex4.
  cbn -[utf8_cp N.mul N.add N.div N.modulo N.ltb hexv hexd]. rewrite D1, D2, D3, D4, E1, E2, E3, E4. cbv zeta.
  rewrite D5, E5. apply N.ltb_ge in L. rewrite L. reflexivity.
Qed.

Lemma raw_unescape_cp f cp R : (cp <= 1114111)%N ->
  raw_unescape (S f) (esc_cp cp ++ R) false = doc t <- raw_unescape f R false; COk (utf8_cp cp ++ t).
Proof.
  intros H. destruct (esc_cp_cases cp) as [[L ->]|[(L & N1 & _ & ->)|[L ->]]].
  - apply raw_unescape_hex4. assumption.
  - cbn [List.app]. rewrite raw_unescape_plain.
    + rewrite to_N_byte_of_N by assumption. reflexivity.
    + change x5c with (byte_of_N 92). apply byte_of_N_inj_neq; (lia || assumption).
  - (* by N.div_mod': lia is slow on div and mod *)
    cbn [List.app]. rewrite <- app_assoc. pose proof (N.div_mod' cp 65536) as E.
    rewrite N.mul_comm in E. rewrite raw_unescape_hex8, <- E; [reflexivity | | rewrite <- E; exact H].
    apply N.mod_lt. discriminate.
Qed.

Lemma raw_unescape_all cps : forall fuel, Forall (fun n => (n <= 1114111)%N) cps ->
  (List.length (flat_map esc_cp cps) < fuel)%nat ->
  raw_unescape fuel (flat_map esc_cp cps) false = COk (flat_map utf8_cp cps).
Proof.
  induction cps as [|cp r IH]; intros fuel F L.
  - destruct fuel; [simpl in L; lia | reflexivity].
  - inversion F; subst. cbn [flat_map] in *. rewrite app_length in L.
    assert (1 <= List.length (esc_cp cp))%nat
      by (destruct (esc_cp_cases cp) as [[_ ->]|[(_ & _ & _ & ->)|[_ ->]]]; simpl; lia).
    destruct fuel as [|f]; [lia |].
    rewrite raw_unescape_cp by assumption. rewrite IH by (auto; lia). reflexivity.
Qed.

Lemma hex4_no_nl n : Forall not_nl (hex4 n).
Proof. unfold hex4. repeat constructor; apply hexd_no_nl; apply N.mod_lt; lia. Qed.

Lemma esc_cp_no_nl cp : Forall not_nl (esc_cp cp).
Proof.
  destruct (esc_cp_cases cp) as [[_ ->]|[(L & _ & N2 & ->)|[_ ->]]].
  - constructor; [discriminate |]. constructor; [discriminate | apply hex4_no_nl].
  - constructor; [| constructor]. unfold not_nl. change nl with (byte_of_N 10).
    apply byte_of_N_inj_neq; (lia || assumption).
  - constructor; [discriminate |]. constructor; [discriminate |]. apply Forall_app. split; apply hex4_no_nl.
Qed.

Lemma unescape_plain b r : b <> x5c -> unescape (b :: r) = doc t <- unescape r; COk (b :: t).
Proof. intros H. cbn [unescape]. rewrite (byte_eqb_neq _ _ H). reflexivity. Qed.

Lemma repr_byte_spec q b : (q = x27 \/ q = x22) ->
  (forall r, unescape (repr_byte q b ++ r) = doc t <- unescape r; COk (b :: t)) /\
  Forall not_nl (repr_byte q b).
Proof.
  intros Hq. unfold repr_byte. pose proof (Byte.to_N_bounded b) as Bb.
  destruct (Byte.eqb b q || Byte.eqb b x5c) eqn:E1.
  { apply orb_true_iff in E1 as [E1|E1]; apply Byte.byte_dec_bl in E1; subst b;
      [destruct Hq as [-> | ->] |]; (split; [reflexivity | repeat constructor; discriminate]). }
  apply orb_false_iff in E1 as [E1 E2].
  destruct (N.eqb_spec (Byte.to_N b) 9) as [e|];
    [| destruct (N.eqb_spec (Byte.to_N b) 10) as [e|Nl]; [| destruct (N.eqb_spec (Byte.to_N b) 13) as [e|]]].
  1-3: apply byte_eq_of_N in e; subst b; split; [reflexivity | repeat constructor; discriminate].
  assert (D : (Byte.to_N b / 16 < 16 /\ Byte.to_N b mod 16 < 16)%N)
    by (split; [apply N.div_lt_upper_bound | apply N.mod_lt]; lia).
  destruct ((Byte.to_N b <? 32) || (Byte.to_N b =? 127))%N.
  { split; [| repeat constructor; try discriminate; apply hexd_no_nl; apply D].
    intros r. cbn -[hexv hexd N.div N.modulo N.mul N.add byte_of_N]. rewrite !hexv_hexd by apply D.
    rewrite N.mul_comm, <- N.div_mod', byte_of_N_to_N. reflexivity. }
  split.
  - intros r. cbn [List.app]. apply unescape_plain. intros ->. vm_compute in E2. discriminate.
  - constructor; [| constructor]. intros ->. apply Nl. reflexivity.
Qed.

Lemma unescape_repr q s : (q = x27 \/ q = x22) -> unescape (flat_map (repr_byte q) s) = COk s.
Proof.
  intros Hq. induction s; [reflexivity |]. cbn [flat_map].
  rewrite (proj1 (repr_byte_spec q a Hq)), IHs. reflexivity.
Qed.

Lemma repr_quote_cases s : repr_quote s = x27 \/ repr_quote s = x22.
Proof. unfold repr_quote. destruct (_ && _); auto. Qed.

Definition ssize_max : Z := 9223372036854775807.

Lemma read_fixed_app n bs rest : List.length bs = n -> read_fixed n (bs ++ rest) = COk (bs, rest).
Proof.
  intros H. unfold read_fixed. rewrite (firstn_app_exact bs rest n H), (skipn_app_exact bs rest n H).
  rewrite H, Nat.eqb_refl. reflexivity.
Qed.

Lemma read_line_app l rest : Forall not_nl l -> read_line (l ++ nl :: rest) = COk (l, rest).
Proof. intros H. unfold read_line. rewrite split_line_app by assumption. reflexivity. Qed.

Lemma read_counted_app w sg pre body rest :
  List.length pre = w ->
  le_N pre = N.of_nat (List.length body) ->
  (sg = true -> (N.of_nat (List.length body) < 2 ^ (8 * N.of_nat w - 1))%N) ->
  (N.of_nat (List.length body) <= maxsize)%N ->
  read_counted w sg (pre ++ body ++ rest) = COk (body, rest).
Proof.
  intros Hw Hn Hs Hm. unfold read_counted.
  rewrite (firstn_app_exact pre _ w Hw), (skipn_app_exact pre _ w Hw), Hw, Nat.eqb_refl. cbn [negb].
  rewrite Hn.
  replace (sg && (2 ^ (8 * N.of_nat w - 1) <=? N.of_nat (List.length body))%N) with false.
  2:{ destruct sg; auto. cbn [andb]. symmetry. apply N.leb_gt. auto. }
  replace (maxsize <? N.of_nat (List.length body))%N with false by (symmetry; apply N.ltb_ge; assumption).
  rewrite app_length.
  replace (N.of_nat (List.length body + List.length rest) <? N.of_nat (List.length body))%N with false
    by (symmetry; apply N.ltb_ge; lia).
  rewrite Nat2N.id.
  rewrite (firstn_app_exact body rest _ eq_refl), (skipn_app_exact body rest _ eq_refl). reflexivity.
Qed.

Lemma genops1_unfold c args row :
  lookup c = Some row ->
  genops1 (c :: args) = doc p <- read_arg (row_reader row) args; COk ((row_name row, fst p), snd p).
Proof. intros H. unfold genops1. rewrite H. reflexivity. Qed.

Definition reads (c : cclass) (g : garg) (bs : list byte) : Prop :=
  forall rest, genops1 (bs ++ rest) = COk ((c_op c, g), rest).

Definition class_reads (c : cclass) (rd : list byte -> cres (garg * list byte)) : Prop :=
  exists row, lookup (class_code c) = Some row /\ row_name row = c_op c /\
              forall bs, read_arg (row_reader row) bs = rd bs.

Lemma reads_arg c rd args g :
  class_reads c rd -> (forall rest, rd (args ++ rest) = COk (g, rest)) -> reads c g (class_code c :: args).
Proof.
  intros (row & L & Nm & R) H rest. rewrite <- app_comm_cons, (genops1_unfold _ _ _ L), R, H, Nm. reflexivity.
Qed.

Lemma reads_fixed c n mk bs g :
  class_reads c (fun bs => doc p <- read_fixed n bs; COk (mk (fst p), snd p)) ->
  List.length bs = n -> mk bs = g -> reads c g (class_code c :: bs).
Proof.
  intros R L <-. apply (reads_arg _ _ _ _ R). intros rest. rewrite read_fixed_app by assumption. reflexivity.
Qed.

Lemma reads_counted c w sg mk pre body :
  class_reads c (fun bs => doc p <- read_counted (Z.to_nat w) sg bs; COk (mk (fst p), snd p)) ->
  List.length pre = Z.to_nat w -> Z.of_N (le_N pre) = blen body ->
  (sg = true -> blen body < 2 ^ (8 * w - 1)) -> blen body <= ssize_max ->
  reads c (mk body) (class_code c :: pre ++ body).
Proof.
  intros R L V S M. apply (reads_arg _ _ _ _ R). intros rest. rewrite <- app_assoc.
  unfold blen in *. rewrite read_counted_app; [reflexivity | exact L | | |].
  - apply N2Z.inj. rewrite V, nat_N_Z. reflexivity.
  - intros ->. specialize (S eq_refl). assert (Hw : 0 <= 8 * w - 1) by (apply pow2_pos_exp; lia).
    apply N2Z.inj_lt. rewrite nat_N_Z, N2Z.inj_pow, N2Z.inj_sub, N2Z.inj_mul, nat_N_Z, Z2Nat.id by lia. exact S.
  - apply N2Z.inj_le. rewrite nat_N_Z. exact M.
Qed.

Lemma reads_decimal c rd z :
  class_reads c (read_arg rd) -> (rd = "read_decimalnl_short" \/ rd = "read_decimalnl_long")%string ->
  reads c (GInt z) (class_code c :: dec_bytes z ++ [nl]).
Proof.
  intros R Hr. apply (reads_arg _ _ _ _ R). intros rest.
  rewrite <- app_assoc. change ([nl] ++ rest) with (nl :: rest).
  destruct Hr as [-> | ->]; cbn -[read_line parse_dec dec_bytes];
    rewrite read_line_app by apply dec_no_nl; cbn [cbind fst snd].
  - rewrite !dec_bytes_neq by (vm_compute; discriminate).
    unfold read_int_text. rewrite dec_roundtrip. reflexivity.
  - (* no numeral ends in L, so nothing is stripped *)
    assert (L : match List.rev (dec_bytes z) with
                | b :: r => if Byte.eqb b x4c then List.rev r else dec_bytes z
                | [] => dec_bytes z end = dec_bytes z).
    { destruct (List.rev (dec_bytes z)) as [|b r] eqn:E; auto.
      destruct (Byte.eqb b x4c) eqn:Eb; auto. apply Byte.byte_dec_bl in Eb. subst b.
      destruct (dec_avoids x4c z eq_refl). apply in_rev. rewrite E. left. reflexivity. }
    rewrite L. unfold read_int_text. rewrite dec_roundtrip. reflexivity.
Qed.

Lemma tok_unicode cps rest : Forall (fun n => (n <= 1114111)%N) cps ->
  genops1 (x56 :: raw_unicode_escape cps ++ rest) = COk (("UNICODE"%string, GText (flat_map utf8_cp cps)), rest).
Proof.
  intros F. unfold raw_unicode_escape. rewrite <- app_assoc. change ([nl] ++ rest) with (nl :: rest).
  erewrite genops1_unfold by reflexivity.
  cbn -[read_line raw_unescape].
  rewrite read_line_app by (apply Forall_flat_map, Forall_forall; intros cp _; apply esc_cp_no_nl).
  cbn [cbind fst snd].
  rewrite raw_unescape_all by (auto; lia). reflexivity.
Qed.

Lemma tok_string s rest : all_ascii s = true ->
  genops1 (x53 :: (py_repr s ++ [nl]) ++ rest) = COk (("STRING"%string, GText s), rest).
Proof.
  intros A. unfold py_repr. pose proof (repr_quote_cases s) as Hq. set (q := repr_quote s) in *. clearbody q.
  rewrite <- app_assoc. change ([nl] ++ rest) with (nl :: rest).
  erewrite genops1_unfold by reflexivity.
  cbn -[read_line unescape]. rewrite app_comm_cons.
  rewrite read_line_app.
  2:{ constructor; [destruct Hq as [-> | ->]; discriminate |]. apply Forall_app. split.
      - apply Forall_flat_map, Forall_forall. intros b _. apply repr_byte_spec. assumption.
      - constructor; [destruct Hq as [-> | ->]; discriminate | constructor]. }
  cbn [cbind fst snd].
  replace (Byte.eqb q x22 || Byte.eqb q x27) with true by (destruct Hq as [-> | ->]; reflexivity).
  rewrite rev_app_distr. cbn [List.rev List.app]. rewrite (Byte.byte_dec_lb (eq_refl q)), rev_involutive.
  unfold escape_ascii. rewrite unescape_repr by assumption. cbn [cbind]. rewrite A. reflexivity.
Qed.

Lemma encode_plain c a :
  c_encode c = "Opcode.encode"%string -> encode c a = doc body <- encode_body c a; COk (class_code c :: body).
Proof. intros Q. unfold encode. rewrite Q. reflexivity. Qed.

Lemma encode_dyn c a bs :
  c_encode c = "DynamicLength.encode"%string -> encode c a = COk bs ->
  exists body len, encode_body c a = COk body /\ bs = class_code c :: len ++ body /\
    List.length len = Z.to_nat (c_width c) /\ Z.of_N (le_N len) = blen body /\ blen body < 2 ^ (8 * c_width c).
Proof.
  intros Q E. unfold encode in E. rewrite Q in E. cbn in E.
  apply cbind_ok in E as (body & B & E). apply cbind_ok in E as (len & L & E). apply COk_inj in E.
  unfold encode_length in L. destruct (c_enclen c =? "DynamicLength.encode_length")%string; [| discriminate].
  destruct (width_ok (c_width c)); [| discriminate]. destruct (in_range c (blen body)); [| discriminate].
  cbn [negb] in L. destruct (pack_int_le _ _ _ _ (fun _ => blen_nonneg body) L) as (Ll & V & Bd & _).
  exists body, len. repeat split; auto; lia.
Qed.

Lemma cint_reads c z bs :
  c_encode c = "Opcode.encode"%string -> c_body c = "ConstantInt.encode_body"%string ->
  class_reads c (fun bs => doc p <- read_fixed (Z.to_nat (c_width c)) bs;
                           COk (GInt (if c_signed c then decode_long (fst p) else Z.of_N (le_N (fst p))), snd p)) ->
  encode c (PInt z) = COk bs -> reads c (GInt z) bs.
Proof.
  intros Q B R E. rewrite (encode_plain _ _ Q) in E. apply cbind_ok in E as (body & Eb & E).
  apply COk_inj in E; subst bs. unfold encode_body in Eb. rewrite B in Eb. cbn in Eb.
  destruct (width_ok (c_width c)); [| discriminate]. cbn [negb] in Eb.
  destruct (c_signed c).
  - destruct (pack_signed_read _ _ _ Eb) as [L V].
    apply (reads_fixed _ _ (fun b => GInt (decode_long b)) _ _ R L). f_equal. exact V.
  - destruct (pack_int_le _ false _ _ ltac:(discriminate) Eb) as (L & V & _).
    apply (reads_fixed _ _ (fun b => GInt (Z.of_N (le_N b))) _ _ R L). f_equal. exact V.
Qed.

(* LONG1 / LONG4: the count is written by the body itself *)
Lemma long_reads c w sg z bs :
  c_encode c = "Opcode.encode"%string ->
  encode_body c (PInt z) = (doc l <- pack_int w sg (blen (encode_long z)); COk (l ++ encode_long z)) ->
  2 ^ (8 * w) <= ssize_max ->
  class_reads c (fun bs => doc p <- read_counted (Z.to_nat w) sg bs; COk (GInt (decode_long (fst p)), snd p)) ->
  encode c (PInt z) = COk bs -> reads c (GInt z) bs.
Proof.
  intros Q B M R E. rewrite (encode_plain _ _ Q), B in E. apply cbind_ok in E as (body & Eb & E).
  apply COk_inj in E; subst bs. apply cbind_ok in Eb as (l & P & Eb). apply COk_inj in Eb; subst body.
  destruct (pack_int_le _ _ _ _ (fun _ => blen_nonneg _) P) as (L & V & Bd & S).
  pose proof (reads_counted c w sg (fun d => GInt (decode_long d)) l (encode_long z) R L V S ltac:(lia)) as F.
  cbv beta in F. rewrite decode_encode_long in F. exact F.
Qed.

Definition reads_back (c : cclass) (arg : pv) (bs : list byte) : Prop :=
  exists g, genops1 bs = COk ((c_op c, g), []) /\ garg_matches arg g = true.

(* The record of a named class is held as a local definition: a variable in every term, unfolded
   where a field is computed. *)
Ltac open_class H :=
  vm_compute in H; injection H as H; match type of H with ?r = ?c => set (cls := r) in H; subst c end.

Ltac class_row := eexists; split; [reflexivity | split; [reflexivity | intros; reflexivity]].

Lemma int_reads n c z bs :
  In n ["BinInt1"; "BinInt2"; "BinInt"; "Int"; "Long"; "Put"; "Get"; "Proto"; "Long1"; "Long4"]%string ->
  find_class n = Some c -> encode c (PInt z) = COk bs -> reads c (GInt z) bs.
Proof.
  intros Hn H E. simpl in Hn.
  destruct Hn as [<-|[<-|[<-|[<-|[<-|[<-|[<-|[<-|[<-|[<-|[]]]]]]]]]]]; open_class H.
  1-3: apply cint_reads; [reflexivity | reflexivity | class_row | exact E].
  1-4: cbn -[dec_bytes] in E; apply COk_inj in E; subst bs; eapply reads_decimal; [class_row | auto].
  - cbn in E. destruct ((0 <=? z) && (z <? 256)) eqn:R; [| discriminate]. cbn in E.
    apply COk_inj in E; subst bs. andb_split R.
    refine (reads_fixed _ 1 (fun b => GInt (Z.of_N (le_N b))) _ _ _ _ _); [class_row | reflexivity |].
    cbn [le_N]. unfold byte_of_Z. rewrite to_N_byte_of_N, N.mul_0_r, N.add_0_r, Z2N.id by lia. reflexivity.
  - apply (long_reads cls 1 false); [reflexivity | reflexivity | unfold ssize_max; cbn; lia | class_row | exact E].
  - apply (long_reads cls 4 true); [reflexivity | reflexivity | unfold ssize_max; cbn; lia | class_row | exact E].
Qed.

Lemma strip_nl_app l : strip_nl (l ++ [nl]) = l.
Proof. unfold strip_nl. rewrite rev_app_distr. cbn. apply rev_involutive. Qed.

(* Get.create(n) keeps b"<n>\n" as its argument *)
Lemma get_create_reads c z bs : find_class "Get" = Some c ->
  encode c (PBytes (dec_bytes z ++ [nl])) = COk bs -> reads c (GInt z) bs.
Proof.
  intros H E. open_class H. cbn -[dec_bytes strip_nl parse_dec] in E.
  rewrite strip_nl_app, dec_roundtrip in E. cbn -[dec_bytes] in E. apply COk_inj in E; subst bs.
  eapply reads_decimal; [class_row | auto].
Qed.

Lemma text_reads n c s a bs :
  In n ["ShortBinUnicode"; "BinUnicode"; "BinUnicode8"]%string -> find_class n = Some c ->
  (a = PStr s \/ a = PBytes s) -> blen s <= ssize_max ->
  encode c a = COk bs -> reads c (GText s) bs.
Proof.
  intros Hn H Ha Hs E. simpl in Hn.
  destruct Hn as [<-|[<-|[<-|[]]]]; open_class H;
    destruct (encode_dyn cls _ _ eq_refl E) as (body & len & B & -> & L & V & _);
    destruct Ha as [-> | ->]; cbn in B; apply COk_inj in B; subst body;
    (apply (reads_counted cls (c_width cls) false GText); [class_row | exact L | exact V | discriminate | exact Hs]).
Qed.

Lemma bytes_reads n c s bs :
  In n ["ShortBinBytes"; "BinBytes"; "BinBytes8"]%string -> find_class n = Some c ->
  blen s <= ssize_max -> encode c (PBytes s) = COk bs -> reads c (GBytes s) bs.
Proof.
  intros Hn H Hs E. simpl in Hn.
  destruct Hn as [<-|[<-|[<-|[]]]]; open_class H;
    destruct (encode_dyn cls _ _ eq_refl E) as (body & len & B & -> & L & V & _);
    cbn in B; apply COk_inj in B; subst body;
    (apply (reads_counted cls (c_width cls) false GBytes); [class_row | exact L | exact V | discriminate | exact Hs]).
Qed.

(* SHORT_BINSTRING / BINSTRING carry the Latin-1 bytes *)
Lemma latin1_body c s body :
  encode_body c (PStr s) = COk body ->
  (c_body c = "ShortBinString.encode_body" \/ c_body c = "BinString.encode_body")%string ->
  latin1_to_utf8 body = s /\ blen body <= blen s.
Proof.
  intros E B. unfold encode_body in E.
  assert (E' : match latin1_of_utf8 s with Some l => COk l | None => CErr XValue end = COk body)
    by (destruct B as [B | B]; rewrite B in E; exact E).
  destruct (latin1_of_utf8 s) as [l|] eqn:L; [| discriminate]. apply COk_inj in E'; subst l.
  apply latin1_roundtrip in L as [L1 L2]. unfold blen. split; [exact L1 | lia].
Qed.

(* BINSTRING's count is read as a SIGNED four-byte integer; fickling writes it unsigned *)
Lemma latin1_reads n c s bs :
  In n ["ShortBinString"; "BinString"]%string -> find_class n = Some c ->
  (n = "BinString"%string -> blen s < 2 ^ 31) ->
  encode c (PStr s) = COk bs -> reads c (GText s) bs.
Proof.
  intros Hn H Hs E. simpl in Hn. destruct Hn as [<-|[<-|[]]]; open_class H;
    destruct (encode_dyn cls _ _ eq_refl E) as (body & len & B & -> & L & V & Bd).
  - destruct (latin1_body _ _ _ B (or_introl eq_refl)) as [<- Lb].
    apply (reads_counted cls (c_width cls) false (fun d => GText (latin1_to_utf8 d))); [class_row | exact L | exact V | discriminate |].
    cbn in Bd. unfold ssize_max. lia.
  - destruct (latin1_body _ _ _ B (or_intror eq_refl)) as [<- Lb]. specialize (Hs eq_refl).
    apply (reads_counted cls (c_width cls) true (fun d => GText (latin1_to_utf8 d))); [class_row | exact L | exact V | intros _ |];
      cbn; unfold ssize_max; lia.
Qed.

Lemma be_N_rev_le w x : be_N (List.rev (le_bytes w x)) = (x mod 256 ^ N.of_nat w)%N.
Proof. unfold be_N. rewrite rev_involutive. apply le_N_le_bytes. Qed.

Lemma float_reads c x bs : find_class "BinFloat" = Some c -> (x < 2 ^ 64)%N ->
  encode c (PFloat x) = COk bs -> reads c (GFloat x) bs.
Proof.
  intros H Hx E. open_class H. cbn -[le_bytes] in E. apply COk_inj in E; subst bs.
  refine (reads_fixed _ 8 (fun b => GFloat (be_N b)) _ _ _ _ _); [class_row | reflexivity |].
  cbv beta. rewrite be_N_rev_le, N.mod_small by exact Hx. reflexivity.
Qed.

Lemma unicode_reads c a s bs : find_class "Unicode" = Some c -> (a = PBytes s \/ a = PStr s) ->
  encode c a = COk bs -> reads c (GText s) bs.
Proof.
  intros H Ha E. open_class H.
  assert (E' : match utf8_decode s with Some cps => COk (x56 :: raw_unicode_escape cps) | None => CErr XValue end = COk bs).
  { destruct Ha as [-> | ->]; cbn -[raw_unicode_escape utf8_decode] in E; destruct (utf8_decode s); exact E. }
  clear E. destruct (utf8_decode s) as [cps|] eqn:D; [| discriminate]. apply COk_inj in E'; subst bs.
  apply utf8_decode_inv in D as [D1 [D2 _]].
  intros rest. rewrite <- app_comm_cons, tok_unicode by assumption. rewrite D1. reflexivity.
Qed.

Lemma string_reads c s bs : find_class "String" = Some c ->
  encode c (PStr s) = COk bs -> reads c (GText s) bs.
Proof.
  intros H E. open_class H. cbn -[py_repr all_ascii] in E.
  destruct (all_ascii s) eqn:A; cbn -[py_repr] in E; [| discriminate]. apply COk_inj in E; subst bs.
  intros rest. rewrite <- app_comm_cons. apply tok_string. assumption.
Qed.

Definition plain_noarg (c : cclass) : bool :=
  class_argless c && String.eqb (c_encode c) "Opcode.encode" && String.eqb (c_body c) "Opcode.encode_body".

Definition noarg_reads_back (c : cclass) : bool :=
  match genops1 [class_code c] with
  | COk ((n, GNone), []) => String.eqb n (c_op c)
  | _ => false
  end.

Lemma noarg_encode c arg : plain_noarg c = true -> encode c arg = COk [class_code c].
Proof.
  unfold plain_noarg. intros H. apply andb_true_iff in H as [H H3]. apply andb_true_iff in H as [H1 H2].
  apply String.eqb_eq in H2, H3. rewrite (encode_plain _ _ H2). unfold encode_body. rewrite H3, H1. reflexivity.
Qed.

Lemma noarg_decodes_back c arg :
  In c opcode_classes -> plain_noarg c = true ->
  encode c arg = COk [class_code c] /\ genops1 [class_code c] = COk ((c_op c, GNone), []).
Proof.
  intros Hin Hp. split; [apply noarg_encode; assumption |].
  assert (T : forallb (fun c => implb (plain_noarg c) (noarg_reads_back c)) opcode_classes = true)
    by (vm_compute; reflexivity).
  rewrite forallb_forall in T. specialize (T c Hin). rewrite Hp in T.
  cbn in T. unfold noarg_reads_back in T.
  destruct (genops1 [class_code c]) as [[[n g] r]|]; try discriminate.
  destruct g; try discriminate. destruct r; try discriminate. apply String.eqb_eq in T. subst. reflexivity.
Qed.

Definition no_encoder (c : cclass) : bool :=
  (negb (class_argless c) && String.eqb (c_encode c) "Opcode.encode" && String.eqb (c_body c) "Opcode.encode_body")
  || String.eqb (c_encode c) "Inst.encode".

Lemma no_encoder_refuses c arg : no_encoder c = true -> exists e, encode c arg = CErr e.
Proof.
  unfold no_encoder. intros H. apply orb_true_iff in H as [H|H].
  - apply andb_true_iff in H as [H H3]. apply andb_true_iff in H as [H1 H2].
    apply String.eqb_eq in H2, H3. apply negb_true_iff in H1.
    rewrite (encode_plain _ _ H2). unfold encode_body. rewrite H3, H1. cbn. eauto.
  - apply String.eqb_eq in H. unfold encode. rewrite H. cbn. eauto.
Qed.

(* for witnesses and non-vacuity *)
Definition reads_backb (n : string) (a : pv) : bool :=
  match find_class n with
  | None => false
  | Some c => match encode c a with
              | CErr _ => true          (* refusing is allowed *)
              | COk bs => match genops1 bs with
                          | COk ((nm, g), []) => String.eqb nm (c_op c) && garg_matches a g
                          | _ => false
                          end
              end
  end.

Definition sound_names : list string :=
  ["Proto"; "Put"; "Get"; "ShortBinUnicode"; "BinUnicode"; "BinUnicode8"; "Unicode"; "String"; "BinInt1"; "BinInt2";
   "BinInt"; "BinFloat"; "ShortBinBytes"; "ShortBinString"; "BinString"; "BinBytes"; "BinBytes8"; "Long1"; "Long4";
   "Int"; "Long"]%string.
Definition differential_only_names : list string := ["Global"]%string.

Definition classify (c : cclass) : string :=
  if plain_noarg c then "noarg"
  else if no_encoder c then "refuses"
  else if mem_str (c_cls c) sound_names then "sound"
  else if mem_str (c_cls c) differential_only_names then "differential"
  else "unclassified"%string.

Definition type_appropriate (n : string) (a : pv) : Prop :=
  (In n ["BinInt1"; "BinInt2"; "BinInt"; "Int"; "Long"; "Put"; "Get"; "Proto"; "Long1"; "Long4"]%string
   /\ exists z, a = PInt z)
  \/ (n = "Get"%string /\ exists z, a = PBytes (dec_bytes z ++ [nl]))
  \/ (In n ["ShortBinUnicode"; "BinUnicode"; "BinUnicode8"]%string
      /\ exists s, (a = PStr s \/ a = PBytes s) /\ blen s <= ssize_max)
  \/ (In n ["ShortBinBytes"; "BinBytes"; "BinBytes8"]%string /\ exists s, a = PBytes s /\ blen s <= ssize_max)
  \/ (n = "BinFloat"%string /\ exists x, a = PFloat x /\ (x < 2 ^ 64)%N)
  \/ (n = "Unicode"%string /\ exists s, a = PBytes s \/ a = PStr s)
  \/ (In n ["String"; "ShortBinString"]%string /\ exists s, a = PStr s)
  \/ (n = "BinString"%string /\ exists s, a = PStr s /\ blen s < 2 ^ 31).

Theorem opcode_reads n c a bs :
  find_class n = Some c -> type_appropriate n a -> encode c a = COk bs ->
  exists g, reads c g bs /\ garg_matches a g = true.
Proof.
  intros H T E.
  destruct T as [[Hn [z ->]]|[[-> [z ->]]|[[Hn [s [Ha Hs]]]|[[Hn [s [-> Hs]]]|[[-> [x [-> Hx]]]|[[-> [s Ha]]|[[Hn [s ->]]|[-> [s [-> Hs]]]]]]]]]].
  - exists (GInt z). split; [eapply int_reads; eauto | apply Z.eqb_refl].
  - exists (GInt z). split; [eapply get_create_reads; eauto |].
    cbn -[dec_bytes strip_nl parse_dec]. rewrite strip_nl_app, dec_roundtrip, Z.eqb_refl, bytes_eqb_refl. reflexivity.
  - exists (GText s). split; [eapply text_reads; eauto | destruct Ha as [-> | ->]; apply bytes_eqb_refl].
  - exists (GBytes s). split; [eapply bytes_reads; eauto | apply bytes_eqb_refl].
  - exists (GFloat x). split; [eapply float_reads; eauto | apply N.eqb_refl].
  - exists (GText s). split; [eapply unicode_reads; eauto | destruct Ha as [-> | ->]; apply bytes_eqb_refl].
  - exists (GText s). split; [| apply bytes_eqb_refl].
    simpl in Hn. destruct Hn as [<-|[<-|[]]]; [eapply string_reads; eauto |].
    eapply (latin1_reads "ShortBinString"); simpl; eauto. discriminate.
  - exists (GText s). split; [| apply bytes_eqb_refl].
    eapply (latin1_reads "BinString"); simpl; eauto.
Qed.

Lemma validate_nonconst c v : is_const v = false -> exists e, validate c v = CErr e.
Proof.
  intros H. unfold validate. cbv zeta.
  destruct v; try discriminate; repeat match goal with |- context[if ?b then _ else _] => destruct b end; eauto.
Qed.

Lemma new_search_nonconst order v : is_const v = false -> exists e, new_search order v = CErr e.
Proof.
  intros H. induction order as [|n r IH]; simpl; [eauto |].
  destruct (find_class n) as [c|]; [| eauto]. destruct (validate_nonconst c v H) as [[] ->]; eauto.
Qed.

(* Evaluating this leaves names; evaluating new_search would fill the goal with records of the
   table. *)
Fixpoint search_name (order : list string) (v : pv) : cres (string * pv) :=
  match order with
  | [] => CErr XValue
  | n :: r => match find_class n with
              | None => CErr XUnmodelled
              | Some c => match validate c v with
                          | COk a => COk (n, a)
                          | CErr XValue => search_name r v
                          | CErr e => CErr e
                          end
              end
  end.

Lemma new_search_name order v c a : new_search order v = COk (c, a) ->
  exists n, find_class n = Some c /\ search_name order v = COk (n, a).
Proof.
  induction order as [|n r IH]; simpl; [discriminate |].
  destruct (find_class n) as [k|] eqn:F; [| discriminate].
  destruct (validate k v) as [a'|[]]; try discriminate; [intros [= <- <-]; eauto | exact IH].
Qed.

Ltac walk H :=
  apply new_search_name in H as (n & F & H); exists n; split; [exact F |]; clear F;
  cbv -[in_range blen] in H; unfold in_range in H; cbn [c_min c_max] in H; revert H.

Lemma const_new_int z c a : const_new (PInt z) = COk (c, a) ->
  exists n, find_class n = Some c /\ a = PInt z /\ In n ["BinInt1"; "BinInt2"; "Int"]%string.
Proof.
  intros H. walk H.
  destruct ((0 <=? z) && (z <=? 255)); [intros [= <- <-]; cbn; auto |].
  destruct ((0 <=? z) && (z <=? 65535)); [intros [= <- <-]; cbn; auto |].
  (* BININT, LONG1 and LONG4 have min_value > max_value *)
  destruct ((2147483648 <=? z) && (z <=? 2147483647)) eqn:R; [lia | clear R].
  destruct ((128 <=? z) && (z <=? 127)) eqn:R; [lia | clear R].
  intros [= <- <-]; cbn; auto.
Qed.

Lemma const_new_float x c a : const_new (PFloat x) = COk (c, a) ->
  exists n, find_class n = Some c /\ a = PFloat x /\ n = "BinFloat"%string.
Proof. intros H. walk H. intros [= <- <-]. auto. Qed.

Lemma const_new_str s c a : blen s <= ssize_max -> const_new (PStr s) = COk (c, a) ->
  exists n, find_class n = Some c /\ a = PBytes s /\
            In n ["ShortBinUnicode"; "BinUnicode"; "BinUnicode8"]%string.
Proof.
  intros Hs H. walk H.
  destruct ((0 <=? blen s) && (blen s <=? 255)); [intros [= <- <-]; cbn; auto |].
  destruct ((0 <=? blen s) && (blen s <=? 4294967295)); [intros [= <- <-]; cbn; auto |].
  destruct ((0 <=? blen s) && (blen s <=? 18446744073709551615)) eqn:R; [intros [= <- <-]; cbn; auto |].
  pose proof (blen_nonneg s). unfold ssize_max in Hs. lia.
Qed.

Lemma const_new_bytes s c a : const_new (PBytes s) = COk (c, a) ->
  exists n, find_class n = Some c /\ a = PBytes s /\ In n ["ShortBinBytes"; "BinBytes"; "BinBytes8"]%string.
Proof.
  intros H. walk H.
  destruct ((0 <=? blen s) && (blen s <=? 255)); [intros [= <- <-]; cbn; auto |].
  destruct ((0 <=? blen s) && (blen s <=? 4294967295)); [intros [= <- <-]; cbn; auto |].
  destruct ((0 <=? blen s) && (blen s <=? 18446744073709551615)); [intros [= <- <-]; cbn; auto | discriminate].
Qed.

Definition arrives (v : pv) (bs : list byte) : Prop :=
  forall rest st, vm_step (bs ++ rest) st = COk (rest, SVal v :: st).

Definition const_ok (v : pv) : Prop :=
  forall c a bs, const_new v = COk (c, a) -> encode c a = COk bs -> arrives v bs.

(* values a Python process can hold *)
Fixpoint pv_wf (v : pv) : Prop :=
  match v with
  | PFloat bits => (bits < 2 ^ 64)%N
  | PStr s => blen s <= ssize_max
  | PBytes s => blen s <= ssize_max
  | PList l => (fix go (l : list pv) : Prop :=
                  match l with [] => True | x :: r => pv_wf x /\ go r end) l
  | PDict kvs => (fix go (l : list (pv * pv)) : Prop :=
                    match l with [] => True | (k, x) :: r => pv_wf k /\ pv_wf x /\ go r end) kvs
  | _ => True
  end.

Lemma const_ok_int z : const_ok (PInt z).
Proof.
  intros c a bs N E. apply const_new_int in N as (n & F & -> & Hn).
  assert (R : reads c (GInt z) bs) by (apply (int_reads n); [cbn in Hn |- *; tauto | exact F | exact E]).
  cbn in Hn. destruct Hn as [<-|[<-|[<-|[]]]]; open_class F;
    intros rest st; unfold vm_step; rewrite (R rest); reflexivity.
Qed.

Lemma const_ok_float x : (x < 2 ^ 64)%N -> const_ok (PFloat x).
Proof.
  intros Hx c a bs N E. apply const_new_float in N as (n & F & -> & ->).
  pose proof (float_reads _ _ _ F Hx E) as R. open_class F.
  intros rest st. unfold vm_step. rewrite (R rest). reflexivity.
Qed.

Lemma const_ok_str s : blen s <= ssize_max -> const_ok (PStr s).
Proof.
  intros Hs c a bs N E. apply const_new_str in N as (n & F & -> & Hn); [| exact Hs].
  assert (R : reads c (GText s) bs) by (apply (text_reads n _ s (PBytes s)); auto).
  cbn in Hn. destruct Hn as [<-|[<-|[<-|[]]]]; open_class F;
    intros rest st; unfold vm_step; rewrite (R rest); reflexivity.
Qed.

Lemma const_ok_bytes s : blen s <= ssize_max -> const_ok (PBytes s).
Proof.
  intros Hs c a bs N E. apply const_new_bytes in N as (n & F & -> & Hn).
  assert (R : reads c (GBytes s) bs) by (apply (bytes_reads n); auto).
  cbn in Hn. destruct Hn as [<-|[<-|[<-|[]]]]; open_class F;
    intros rest st; unfold vm_step; rewrite (R rest); reflexivity.
Qed.

Lemma const_ok_wf v : is_const v = true -> pv_wf v -> const_ok v.
Proof.
  intros C W. destruct v; try discriminate C;
    [apply const_ok_int | | apply const_ok_float | apply const_ok_str | apply const_ok_bytes]; try exact W.
  (* a bool is refused by every class of the search *)
  intros c a bs N. apply new_search_name in N as (n & _ & N). cbv in N. discriminate N.
Qed.

Lemma pv_wf_list l : pv_wf (PList l) <-> Forall pv_wf l.
Proof.
  induction l; simpl; split; intros H; auto.
  - destruct H as [H1 H2]. constructor; auto. apply IHl. exact H2.
  - inversion H; subst. split; auto. apply IHl. assumption.
Qed.

Lemma pv_wf_dict kvs : pv_wf (PDict kvs) <-> Forall (fun kv => pv_wf (fst kv) /\ pv_wf (snd kv)) kvs.
Proof.
  induction kvs as [|[k x] r IH]; simpl; split; intros H; auto.
  - destruct H as [H1 [H2 H3]]. constructor; auto. apply IH. exact H3.
  - inversion H; subst. simpl in *. destruct H2. repeat split; auto. apply IH. assumption.
Qed.

Section pv_induction.
  Variable P : pv -> Prop.
  Hypothesis Hconst : forall v, is_const v = true -> P v.
  Hypothesis Hother : P POther.
  Hypothesis Hlist : forall l, Forall P l -> P (PList l).
  Hypothesis Hdict : forall kvs, Forall (fun kv => P (fst kv) /\ P (snd kv)) kvs -> P (PDict kvs).

  Fixpoint pv_ind2 (v : pv) : P v :=
    match v with
    | POther => Hother
    | PList l =>
        Hlist l ((fix go (l : list pv) : Forall P l :=
                    match l with
                    | [] => Forall_nil P
                    | x :: r => Forall_cons x (pv_ind2 x) (go r)
                    end) l)
    | PDict kvs =>
        Hdict kvs ((fix go (l : list (pv * pv)) : Forall (fun kv => P (fst kv) /\ P (snd kv)) l :=
                      match l with
                      | [] => Forall_nil _
                      | kv :: r => Forall_cons kv (conj (pv_ind2 (fst kv)) (pv_ind2 (snd kv))) (go r)
                      end) kvs)
    | c => Hconst c eq_refl
    end.
End pv_induction.

Fixpoint steps (n : nat) (bs : list byte) (st : list sitem) : cres (list byte * list sitem) :=
  match n with
  | O => COk (bs, st)
  | S k => match vm_step bs st with
           | COk (r, s) => steps k r s
           | CErr e => CErr e
           end
  end.

Lemma steps_app n m bs st r s :
  steps n bs st = COk (r, s) -> steps (n + m) bs st = steps m r s.
Proof.
  revert bs st; induction n; intros bs st H; simpl in *.
  - inversion H; subst. reflexivity.
  - destruct (vm_step bs st) as [[r1 s1]|]; [| discriminate]. apply IHn. assumption.
Qed.

Lemma vm_step_not_stop r st : exists e, vm_step (stop_byte :: r) st = CErr e.
Proof. eexists. unfold vm_step. erewrite genops1_unfold by reflexivity. cbn. reflexivity. Qed.

Lemma run_steps n f bs st r s :
  steps n bs st = COk (r, s) -> vm_run (n + f) bs st = vm_run f r s.
Proof.
  revert bs st; induction n; intros bs st H; simpl in *.
  - inversion H; subst. reflexivity.
  - destruct (vm_step bs st) as [[r1 s1]|] eqn:E; [| discriminate].
    destruct bs as [|b bs'].
    + unfold vm_step, genops1 in E. cbn in E. discriminate.
    + destruct (Byte.eqb b stop_byte) eqn:Eb.
      * apply Byte.byte_dec_bl in Eb. subst b. destruct (vm_step_not_stop bs' st) as [e He]. congruence.
      * apply IHn. assumption.
Qed.

(* at most |bs| steps: loads gives a run over bs one step more than bs has bytes *)
Definition vm_pushes (vals : list pv) (bs : list byte) : Prop :=
  exists n, (n <= List.length bs)%nat /\
            forall rest st, steps n (bs ++ rest) st = COk (rest, List.rev (map SVal vals) ++ st).

Lemma vm_pushes_nil : vm_pushes [] [].
Proof. exists 0%nat. split; auto. Qed.

Lemma vm_pushes_app v1 v2 b1 b2 : vm_pushes v1 b1 -> vm_pushes v2 b2 -> vm_pushes (v1 ++ v2) (b1 ++ b2).
Proof.
  intros [n1 [L1 H1]] [n2 [L2 H2]]. exists (n1 + n2)%nat. split.
  - rewrite app_length. lia.
  - intros rest st. rewrite <- app_assoc, (steps_app n1 n2 _ _ _ _ (H1 _ _)), H2.
    rewrite map_app, rev_app_distr, app_assoc. reflexivity.
Qed.

Lemma vm_pushes_one v bs : arrives v bs -> vm_pushes [v] bs.
Proof.
  intros A. exists 1%nat. split.
  - destruct bs; [| simpl; lia]. specialize (A [] []). discriminate A.
  - intros rest st. simpl. rewrite A. reflexivity.
Qed.

Definition built_ok (v : pv) : Prop := forall bs, build v = COk bs -> vm_pushes [v] bs.

Lemma enc_obj_const v : is_const v = true -> enc_obj v = new_cop v.
Proof. destruct v; simpl; intros; try discriminate; reflexivity. Qed.

Lemma built_ok_const v : is_const v = true -> pv_wf v -> built_ok v.
Proof.
  intros Hc W bs Hb. pose proof (const_ok_wf v Hc W) as Hk.
  unfold build in Hb. rewrite enc_obj_const in Hb by assumption.
  apply cbind_ok in Hb as (ops & N & D). apply cbind_ok in N as ([c a] & N & Eo). apply COk_inj in Eo; subst ops.
  cbn in D. apply cbind_ok in D as (e & E & D). apply COk_inj in D; subst bs.
  rewrite app_nil_r. apply vm_pushes_one. exact (Hk c a e N E).
Qed.

Definition item_ops (x : pv) : cres (list cop) := if is_const x then new_cop x else enc_obj x.

Lemma item_ops_eq x : item_ops x = enc_obj x.
Proof. unfold item_ops. destruct (is_const x) eqn:E; auto. symmetry. apply enc_obj_const. assumption. Qed.

(* a dict key goes through new_cop whatever it is; that succeeds on constants only *)
Lemma item_ops_key k ko : new_cop k = COk ko -> item_ops k = COk ko.
Proof.
  unfold item_ops. destruct (is_const k) eqn:C; auto.
  destruct (new_search_nonconst const_order k C) as [e He]. unfold new_cop, const_new. rewrite He. discriminate.
Qed.

Fixpoint enc_items (l : list pv) : cres (list cop) :=
  match l with
  | [] => COk []
  | x :: r => doc a <- item_ops x; doc b <- enc_items r; COk (a ++ b)
  end.

Fixpoint enc_pairs (l : list (pv * pv)) : cres (list cop) :=
  match l with
  | [] => COk []
  | (k, x) :: r => doc ko <- new_cop k; doc a <- item_ops x; doc b <- enc_pairs r; COk (ko ++ a ++ b)
  end.

Lemma enc_obj_list l :
  enc_obj (PList l) = doc items <- enc_items l; COk (OPlain "Mark" :: items ++ [OPlain "List"]).
Proof. reflexivity. Qed.

Lemma enc_obj_dict kv r :
  enc_obj (PDict (kv :: r)) =
  doc items <- enc_pairs (kv :: r); COk (OPlain "Mark" :: items ++ [OPlain "Dict"]).
Proof. reflexivity. Qed.

Definition flat (kvs : list (pv * pv)) : list pv := flat_map (fun kv => [fst kv; snd kv]) kvs.

Lemma enc_pairs_flat l ops : enc_pairs l = COk ops -> enc_items (flat l) = COk ops.
Proof.
  revert ops. induction l as [|[k x] r IH]; intros ops E; [exact E |].
  simpl in E. apply cbind_ok in E as (ko & Ek & E). apply cbind_ok in E as (a & Ea & E).
  apply cbind_ok in E as (b & Eb & E). apply COk_inj in E; subst ops.
  change (flat ((k, x) :: r)) with (k :: x :: flat r). cbn [enc_items].
  rewrite (item_ops_key k ko Ek), Ea, (IH _ Eb). reflexivity.
Qed.

Lemma dumps_cops_app a b :
  dumps_cops (a ++ b) = doc x <- dumps_cops a; doc y <- dumps_cops b; COk (x ++ y).
Proof.
  induction a; simpl.
  - destruct (dumps_cops b); reflexivity.
  - destruct (encode_cop a); cbn; auto. rewrite IHa.
    destruct (dumps_cops a0); cbn; auto. destruct (dumps_cops b); cbn; auto.
    rewrite app_assoc. reflexivity.
Qed.

Lemma items_ok l : Forall built_ok l ->
  forall ops bs, enc_items l = COk ops -> dumps_cops ops = COk bs -> vm_pushes l bs.
Proof.
  induction 1 as [|x r Hx Hr IH]; intros ops bs E D.
  - simpl in E. inversion E; subst. simpl in D. inversion D; subst. apply vm_pushes_nil.
  - simpl in E. apply cbind_ok in E as [a [Ea E]]. apply cbind_ok in E as [b [Eb E]].
    apply COk_inj in E; subst ops. rewrite dumps_cops_app in D.
    apply cbind_ok in D as [ba [Da D]]. apply cbind_ok in D as [bb [Db D]]. apply COk_inj in D; subst bs.
    rewrite item_ops_eq in Ea. apply (vm_pushes_app [x] r); [| eapply IH; eauto].
    apply Hx. unfold build. rewrite Ea. exact Da.
Qed.

Lemma pop_mark_vals l st acc :
  pop_mark (List.rev (map SVal l) ++ SMark :: st) acc = COk (l ++ acc, st).
Proof.
  revert acc. induction l using rev_ind; intros acc; simpl.
  - reflexivity.
  - rewrite map_app, rev_app_distr. simpl. rewrite IHl. rewrite <- app_assoc. reflexivity.
Qed.

Lemma pair_up_flat kvs : pair_up (flat kvs) = COk kvs.
Proof.
  induction kvs as [|[k x] r IH]; auto.
  change (flat ((k, x) :: r)) with (k :: x :: flat r). cbn [pair_up]. rewrite IH. reflexivity.
Qed.

Lemma vm_step_mark rest st : vm_step (x28 :: rest) st = COk (rest, SMark :: st).
Proof. reflexivity. Qed.

Lemma vm_step_list rest st :
  vm_step (x6c :: rest) st = doc p <- pop_mark st []; COk (rest, SVal (PList (fst p)) :: snd p).
Proof. reflexivity. Qed.

Lemma vm_step_dict rest st :
  vm_step (x64 :: rest) st =
  doc p <- pop_mark st []; doc kv <- pair_up (fst p); COk (rest, SVal (PDict kv) :: snd p).
Proof. reflexivity. Qed.

Lemma vm_pushes_wrap vals items closer cb v out :
  (forall bs, dumps_cops items = COk bs -> vm_pushes vals bs) ->
  encode_cop (OPlain closer) = COk [cb] ->
  (forall rest st, vm_step (cb :: rest) (List.rev (map SVal vals) ++ SMark :: st)
                   = COk (rest, SVal v :: st)) ->
  dumps_cops (OPlain "Mark" :: items ++ [OPlain closer]) = COk out -> vm_pushes [v] out.
Proof.
  intros Hi Hc Hstep D.
  change (OPlain "Mark" :: items ++ [OPlain closer]) with ([OPlain "Mark"] ++ items ++ [OPlain closer]) in D.
  rewrite !dumps_cops_app in D. cbn [dumps_cops] in D.
  change (encode_cop (OPlain "Mark")) with (COk [x28]) in D. rewrite Hc in D.
  destruct (dumps_cops items) as [bs|]; [| discriminate]. cbn in D. apply COk_inj in D; subst out.
  destruct (Hi bs eq_refl) as [n [Ln Hn]].
  exists (S (n + 1))%nat. split.
  - simpl. rewrite !app_length. simpl. lia.
  - intros rest st. rewrite <- app_comm_cons, <- app_assoc. cbn [steps]. rewrite vm_step_mark.
    rewrite (steps_app n 1 _ _ _ _ (Hn _ _)).
    change ([cb] ++ rest) with (cb :: rest). cbn [steps]. rewrite Hstep. reflexivity.
Qed.

Lemma built_ok_all : forall v, pv_wf v -> built_ok v.
Proof.
  induction v using pv_ind2; intros W.
  - apply built_ok_const; assumption.
  - intros bs Hb. discriminate Hb.
  - apply pv_wf_list in W.
    assert (HB : Forall built_ok l).
    { rewrite Forall_forall in *. intros x Hx. apply H; auto. }
    intros out Hb. unfold build in Hb. rewrite enc_obj_list in Hb.
    apply cbind_ok in Hb as [ops [Eo D]]. apply cbind_ok in Eo as [items [Ei Eo]].
    apply COk_inj in Eo; subst ops.
    apply (vm_pushes_wrap l items "List" x6c); [eauto using items_ok | reflexivity | | exact D].
    intros rest st. rewrite vm_step_list, pop_mark_vals. cbn. rewrite app_nil_r. reflexivity.
  - apply pv_wf_dict in W.
    assert (HB : Forall built_ok (flat kvs)).
    { apply Forall_flat_map. rewrite Forall_forall in *. intros kv Hkv.
      specialize (H kv Hkv). specialize (W kv Hkv). repeat constructor; tauto. }
    intros out Hb. unfold build in Hb. destruct kvs as [|kv r].
    + vm_compute in Hb. apply COk_inj in Hb; subst out. apply vm_pushes_one. intros rest st. reflexivity.
    + rewrite enc_obj_dict in Hb.
      apply cbind_ok in Hb as [ops [Eo D]]. apply cbind_ok in Eo as [items [Ei Eo]].
      apply COk_inj in Eo; subst ops. apply enc_pairs_flat in Ei.
      apply (vm_pushes_wrap (flat (kv :: r)) items "Dict" x64); [eauto using items_ok | reflexivity | | exact D].
      intros rest st. rewrite vm_step_dict, pop_mark_vals. cbn [cbind fst snd]. rewrite app_nil_r.
      rewrite pair_up_flat. reflexivity.
Qed.

Theorem arrives_or_refused v :
  pv_wf v ->
  match build v with
  | CErr _ => True
  | COk bs => loads (bs ++ [stop_byte]) = COk v
  end.
Proof.
  intros W. destruct (build v) as [bs|] eqn:E; [| exact I].
  destruct (built_ok_all v W bs E) as [n [Ln Hn]].
  unfold loads. rewrite app_length. simpl List.length.
  replace (S (List.length bs + 1)) with (n + S (List.length bs + 1 - n))%nat by lia.
  rewrite (run_steps _ _ _ _ _ _ (Hn [stop_byte] [])).
  reflexivity.
Qed.
