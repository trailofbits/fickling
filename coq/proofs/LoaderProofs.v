(* The checked loader of model/Loader.v (C02). *)
From Coq Require Import List String ZArith Lia.
From Coq.Strings Require Import Byte.
From Verif Require Import Base BaseProofs Hooks HooksProofs Ops RefVM Codec CodecProofs Analysis
  AnalysisProofs Severity SeverityProofs Loader.
Import ListNotations.
Local Open Scope list_scope.
Local Open Scope nat_scope.

Definition analysed_bytes (s : stream) (p : loaded) : list byte :=
  match s_kind s with
  | KBytes => firstn (l_end p) (s_at s T_PARSE)
  | KSeekable => firstn (l_end p - s_off s) (skipn (s_off s) (s_at s T_PARSE))
  | KNonSeekable => firstn (l_end p) (skipn (s_off s) (s_at s T_PARSE))
  end.

Lemma dumps_is_first_pickle s p :
  load_model (s_kind s) (s_at s T_PARSE) (s_off s) = LOk p ->
  dumps (l_ops p) = Ok (analysed_bytes s p) /\ ends_in_stop (l_ops p) (l_end p).
Proof.
  unfold analysed_bytes. destruct (s_kind s); intro H.
  - apply bytes_exact in H. destruct H as (A & B & _). split; assumption.
  - apply seekable_exact in H. destruct H as (A & B & _). split; assumption.
  - apply nonseekable_as_bytes_model in H. apply bytes_exact in H. simpl in H.
    destruct H as (A & B & _). split; assumption.
Qed.

Lemma parse_bytes_exact data p2 :
  parse_bytes data = LOk p2 ->
  dumps (l_ops p2) = Ok (firstn (l_end p2) data) /\ ends_in_stop (l_ops p2) (l_end p2) /\
  0 < l_end p2 <= List.length data.
Proof.
  unfold parse_bytes. intro H. apply bytes_exact in H. destruct H as (A & B & _ & C & _).
  repeat split; try assumption; lia.
Qed.

Section WithWorld.
Variable V : Type.
Variable unpickle : list byte -> ures V * list event.
Variable decode : list opc -> option (list op * list (nat * Z)).
Variable crepr : const -> string.
Variable std : string -> bool.

Notation load_core := (Loader.load_core V unpickle decode crepr std).
Notation load := (Loader.load V unpickle decode crepr std).
Notation armed_with := (Loader.armed_with V).
Notation check := (Loader.check crepr std).

Definition data_of (p1 : lres (list opc)) (data : list byte) : Prop :=
  exists ops1, p1 = LOk ops1 /\ dumps ops1 = Ok data.

Definition analysed (data : list byte) (p2 : loaded) (fs : list finding) : Prop :=
  exists prog protos,
    parse_bytes data = LOk p2 /\
    decode (l_ops p2) = Some (prog, protos) /\
    check prog protos = COk fs.

(* for ANY result p1 of the first parse *)
Inductive refusal (p1 : lres (list opc)) (thr : sev) : lexn -> Prop :=
| RParse e : p1 = LErr e -> refusal p1 thr (XParse e)
| RDumps ops1 e : p1 = LOk ops1 -> dumps ops1 = Err e -> refusal p1 thr (XDumps e)
| RReparse data e : data_of p1 data -> parse_bytes data = LErr e -> refusal p1 thr (XParse e)
| RDecode data p2 :
    data_of p1 data -> parse_bytes data = LOk p2 -> decode (l_ops p2) = None ->
    refusal p1 thr (XParse LDecode)
| RAnalysis data p2 prog protos a :
    data_of p1 data -> parse_bytes data = LOk p2 -> decode (l_ops p2) = Some (prog, protos) ->
    check prog protos = CErr a -> refusal p1 thr (XAnalysis a)
| RUnsafe data p2 fs :
    data_of p1 data -> analysed data p2 fs -> sev_le (verdict fs) thr = false ->
    refusal p1 thr (XUnsafe (to_dict fs)).

Lemma core_cases p1 rd thr :
  (exists data p2 fs, data_of p1 data /\ analysed data p2 fs /\ sev_le (verdict fs) thr = true /\
                      load_core p1 rd thr = finish V (unpickle data) data rd)
  \/ (exists x, refusal p1 thr x /\ load_core p1 rd thr = refuse V x rd).
Proof.
  unfold Loader.load_core.
  destruct p1 as [ops1|e].
  1: destruct (dumps ops1) as [data|e] eqn:ED.
  1: assert (HD : data_of (LOk ops1) data) by (exists ops1; split; [reflexivity|exact ED]).
  1: destruct (parse_bytes data) as [p2|e] eqn:EP.
  1: destruct (decode (l_ops p2)) as [[prog protos]|] eqn:EDc.
  1: destruct (Loader.check crepr std prog protos) as [fs|a] eqn:EC.
  1: assert (HA : analysed data p2 fs) by (exists prog, protos; repeat split; assumption).
  1: destruct (sev_le (verdict fs) thr) eqn:ES.
  1: { left. exists data, p2, fs. repeat split; assumption. }
  (* each failed test is the refusal of its own constructor *)
  all: right; eexists; (split; [|reflexivity]); econstructor; solve [eauto].
Qed.

Lemma finish_out u bs rd v : r_out (finish V u bs rd) = Return v -> fst u = UVal v.
Proof. unfold finish. simpl. destruct (fst u); intro H; inversion H. reflexivity. Qed.

Lemma refused_nothing_ran p1 rd thr x :
  refusal p1 thr x ->
  load_core p1 rd thr = refuse V x rd /\
  r_out (load_core p1 rd thr) = Raise x /\ r_events (load_core p1 rd thr) = [] /\
  r_loaded (load_core p1 rd thr) = None.
Proof.
  intro R.
  assert (E : load_core p1 rd thr = refuse V x rd); [|rewrite E; repeat split].
  unfold Loader.load_core.
  destruct R as [e ->|ops1 e -> H1|data e (o & -> & H1) H2|data p2 (o & -> & H1) H2 H3
                |data p2 g r a (o & -> & H1) H2 H3 H4|data p2 fs (o & -> & H1) (g & r & H2 & H3 & H4) H5].
  - reflexivity.
  - rewrite H1. reflexivity.
  - rewrite H1, H2. reflexivity.
  - rewrite H1, H2, H3. reflexivity.
  - rewrite H1, H2, H3, H4. reflexivity.
  - rewrite H1, H2, H3, H4, H5. reflexivity.
Qed.

Lemma executed_is_analysed p1 rd thr bs :
  r_loaded (load_core p1 rd thr) = Some bs ->
  data_of p1 bs /\
  exists p2 prog protos fs,
    parse_bytes bs = LOk p2 /\ decode (l_ops p2) = Some (prog, protos) /\
    check prog protos = COk fs /\ sev_le (verdict fs) thr = true /\
    dumps (l_ops p2) = Ok (firstn (l_end p2) bs) /\ ends_in_stop (l_ops p2) (l_end p2) /\
    0 < l_end p2 <= List.length bs.
Proof.
  intro H. destruct (core_cases p1 rd thr) as [(data & p2 & fs & HD & HA & HS & E)|(x & _ & E)]; rewrite E in H.
  - simpl in H. inversion H; subst bs. split; [exact HD|].
    destruct HA as (g & r & A & B & C). destruct (parse_bytes_exact data p2 A) as (D1 & D2 & D3).
    exists p2, g, r, fs. repeat split; try assumption; lia.
  - discriminate H.
Qed.

Lemma core_depends_on_dumps_only p1 ops1 ops1' rd thr :
  p1 = LOk ops1 -> dumps ops1 = dumps ops1' -> load_core p1 rd thr = load_core (LOk ops1') rd thr.
Proof. intros -> H. unfold Loader.load_core. rewrite H. reflexivity. Qed.

Lemma core_reads p1 rd thr : r_reads (load_core p1 rd thr) = rd.
Proof.
  destruct (core_cases p1 rd thr) as [(data & p2 & fs & _ & _ & _ & E)|(x & _ & E)]; rewrite E; reflexivity.
Qed.

Lemma loaded_is_first_pickle s thr bs :
  r_loaded (load s thr) = Some bs ->
  exists p, load_model (s_kind s) (s_at s T_PARSE) (s_off s) = LOk p /\
            bs = analysed_bytes s p /\ ends_in_stop (l_ops p) (l_end p).
Proof.
  unfold Loader.load, first_parse. intro H. apply executed_is_analysed in H. destruct H as ((ops1 & H & D) & _).
  destruct (load_model (s_kind s) (s_at s T_PARSE) (s_off s)) as [p|e] eqn:EL; [|discriminate].
  inversion H; subst ops1. destruct (dumps_is_first_pickle s p EL) as (D' & S).
  rewrite D' in D. inversion D. exists p. repeat split; assumption.
Qed.

Lemma later_content_irrelevant s s' thr :
  s_kind s = s_kind s' -> s_off s = s_off s' -> s_at s T_PARSE = s_at s' T_PARSE ->
  load s thr = load s' thr.
Proof. intros A B C. unfold Loader.load, first_parse. rewrite A, B, C. reflexivity. Qed.

Lemma reads_only_during_parse s thr t : In t (r_reads (load s thr)) -> t = T_PARSE.
Proof.
  unfold Loader.load. rewrite core_reads. destruct (s_kind s); simpl; intuition.
Qed.

Lemma armed_equiv (checked : sev -> lrun V) (stock : lrun V) h a :
  g_ml (grun g_init h) = None ->
  armed_with checked stock h a =
    Some (checked (match a with ADirect thr => thr | _ => LIKELY_SAFE end)).
Proof.
  intro HG. destruct a as [thr| |t]; [reflexivity| |];
    unfold Loader.armed_with, Loader.pickle_load_with, arm_ops; simpl hrun;
    destruct (others_reachable h) as (P & _); rewrite HG in P; simpl in P;
    simpl; rewrite P; reflexivity.
Qed.

End WithWorld.

Lemma likely_safe_lowest t : doc_rank LIKELY_SAFE <= doc_rank t.
Proof. rewrite LIKELY_SAFE_rank. lia. Qed.

Lemma thresholds_length : List.length all_thresholds = 6.
Proof. unfold all_thresholds. rewrite seq_length. exact nsev_6. Qed.

Lemma threshold_spec a b :
  In a all_thresholds -> In b all_thresholds -> sev_le a b = (doc_rank a <=? doc_rank b).
Proof.
  unfold all_thresholds. rewrite !in_seq. intros Ha Hb. apply le_spec; unfold SeverityProofs.wf; lia.
Qed.
