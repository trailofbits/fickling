(* The Codec model (C06): the token loop, the back-fill algorithm of Pickled.load in closed form,
   byte-exact dumps, locality of a parse (it depends only on the bytes it consumes, and on its
   offset only by a shift of positions), the partition of a stacked input. *)
From Coq Require Import List String ZArith NArith Bool Lia.
From Coq.Strings Require Import Byte.
From Verif Require Import Base BaseProofs OpTable Codec.
Import ListNotations.
Local Open Scope nat_scope.
Local Open Scope list_scope.

Lemma read_at_cat : forall buf p n m,
  (read_at buf p n ++ read_at buf (n + p) m)%list = read_at buf p (n + m).
Proof.
  intros. unfold read_at. rewrite <- (skipn_skipn' n p buf). apply firstn_cat_skipn.
Qed.

Lemma read_at_length : forall buf p n, p + n <= List.length buf -> List.length (read_at buf p n) = n.
Proof.
  intros. unfold read_at. rewrite firstn_length, skipn_length. lia.
Qed.

Lemma read_at_firstn : forall buf m p n, p + n <= m -> read_at (firstn m buf) p n = read_at buf p n.
Proof.
  intros buf m p n H. unfold read_at. rewrite skipn_firstn_comm. apply firstn_firstn_le. lia.
Qed.

Lemma skipn_shift : forall (pre b rest : list byte) p, p <= List.length b ->
  skipn (List.length pre + p) (pre ++ b ++ rest) = (skipn p b ++ rest)%list.
Proof.
  intros. rewrite Nat.add_comm, <- skipn_skipn', skipn_app_exact, skipn_app by reflexivity.
  replace (p - List.length b) with 0 by lia. reflexivity.
Qed.

Lemma read_at_shift : forall pre b rest p n, p + n <= List.length b ->
  read_at (pre ++ b ++ rest) (List.length pre + p) n = read_at b p n.
Proof.
  intros pre b rest p n H. unfold read_at. rewrite skipn_shift by lia.
  apply firstn_app_le. rewrite skipn_length. lia.
Qed.

(* what the theorems need of the regenerated table, checked by computation *)
Definition row_ok (r : oprow) : bool :=
  (match reader_kind (row_reader r) with Some _ => true | None => false end)
  && (if N.eqb (row_code r) stop_code
      then String.eqb (row_reader r) "none" && String.eqb (row_name r) "STOP" else true)
  (* arg.n > 0, which fickling reads at once, is what the reader consumes *)
  && (if Z.ltb 0 (row_n r)
      then match reader_kind (row_reader r) with
           | Some (RFixed n) => Nat.eqb n (Z.to_nat (row_n r))
           | _ => false
           end
      else true)
  && N.ltb (row_code r) 256.

Lemma op_table_ok : forallb row_ok op_table = true.
Proof. vm_compute. reflexivity. Qed.

Lemma find_code_spec : forall c t r, find_code c t = Some r -> In r t /\ row_code r = c.
Proof.
  induction t as [|x t IH]; simpl; intros r H; [discriminate|].
  destruct (N.eqb (row_code x) c) eqn:E.
  - inversion H; subst. apply N.eqb_eq in E. auto.
  - destruct (IH r H). auto.
Qed.

Lemma lookup_spec : forall c r, lookup c = Some r ->
  row_ok r = true /\ row_code r = Byte.to_N c.
Proof.
  unfold lookup. intros c r H. apply find_code_spec in H. destruct H as [Hin Hc]. split; [|exact Hc].
  pose proof op_table_ok as T. rewrite forallb_forall in T. apply T. exact Hin.
Qed.

Lemma row_ok_reader : forall r, row_ok r = true -> exists k, reader_kind (row_reader r) = Some k.
Proof.
  unfold row_ok. intros r H. repeat (apply andb_prop in H; destruct H as [H ?]).
  destruct (reader_kind (row_reader r)); [eauto|discriminate].
Qed.

Lemma row_ok_stop : forall r, row_ok r = true -> row_code r = stop_code ->
  row_reader r = "none"%string /\ row_name r = "STOP"%string.
Proof.
  unfold row_ok. intros r H E. repeat (apply andb_prop in H; destruct H as [H ?]).
  rewrite E, N.eqb_refl in H2. apply andb_prop in H2. destruct H2 as [A B].
  apply String.eqb_eq in A. apply String.eqb_eq in B. auto.
Qed.

Lemma row_ok_fixed : forall r, row_ok r = true -> (0 < row_n r)%Z ->
  reader_kind (row_reader r) = Some (RFixed (Z.to_nat (row_n r))).
Proof.
  unfold row_ok. intros r H P. repeat (apply andb_prop in H; destruct H as [H ?]).
  apply Z.ltb_lt in P. rewrite P in H1.
  destruct (reader_kind (row_reader r)) as [[| n | | | ]|]; try discriminate.
  apply Nat.eqb_eq in H1. subst. reflexivity.
Qed.

Lemma code_byte_lookup : forall c r, lookup c = Some r -> code_byte r = c.
Proof.
  intros c r H. apply lookup_spec in H. destruct H as [_ H]. unfold code_byte. rewrite H.
  rewrite Byte.of_to_N. reflexivity.
Qed.

Lemma line_len_bound : forall l n, line_len l = Some n -> 1 <= n <= List.length l.
Proof.
  induction l as [|b l IH]; simpl; intros n H; [discriminate|].
  destruct (Byte.eqb b x0a).
  - inversion H; subst. lia.
  - destruct (line_len l) as [m|]; [|discriminate]. inversion H; subst.
    specialize (IH m eq_refl). lia.
Qed.

(* Locality: a line, an argument, a token are determined by the bytes they consume; appending to
   the data (below) and cutting it after them (CodecTruncProofs) are the instances. *)
Lemma line_len_local : forall l l' n, line_len l = Some n -> firstn n l' = firstn n l -> line_len l' = Some n.
Proof.
  induction l as [|b l IH]; simpl; intros l' n H W; [discriminate|].
  destruct (Byte.eqb b x0a) eqn:B.
  - inversion H; subst. destruct l' as [|b' l']; [discriminate|]. injection W as ->. simpl. rewrite B. reflexivity.
  - destruct (line_len l) as [m|]; [|discriminate]. inversion H; subst.
    destruct l' as [|b' l']; [discriminate|]. simpl in W. injection W as -> W. simpl.
    rewrite B, (IH l' m eq_refl W). reflexivity.
Qed.

Ltac brk H :=
  repeat match type of H with
         | context [match ?c with _ => _ end] =>
             let E := fresh "E" in destruct c eqn:E; try discriminate H
         end.

Ltac red_arg_len H := cbv beta iota zeta delta [arg_len] in H.

Lemma arg_len_bound : forall k args n, arg_len k args = Ok n -> n <= List.length args.
Proof.
  intros k args n H. destruct k as [| f | | | w sg]; red_arg_len H.
  - inversion H. lia.
  - brk H. inversion H; subst. apply Nat.eqb_eq in E. rewrite firstn_length in E. lia.
  - brk H. inversion H; subst. apply line_len_bound in E. lia.
  - brk H. inversion H; subst.
    apply line_len_bound in E. apply line_len_bound in E0. rewrite skipn_length in E0. lia.
  - brk H. inversion H; subst. apply negb_false_iff in E. apply Nat.eqb_eq in E. rewrite firstn_length in E.
    apply N.ltb_ge in E2. rewrite skipn_length in E2. lia.
Qed.

Lemma arg_len_local : forall k a a' n, arg_len k a = Ok n -> firstn n a' = firstn n a -> arg_len k a' = Ok n.
Proof.
  intros k a a' n H W. pose proof (arg_len_bound _ _ _ H) as B.
  destruct k as [| f | | | w sg]; red_arg_len H; cbv beta iota zeta delta [arg_len].
  - exact H.
  - brk H. inversion H; subst. rewrite W, E. reflexivity.
  - brk H. inversion H; subst. rewrite (line_len_local _ _ _ E W). reflexivity.
  - brk H. inversion H; subst.
    rewrite (line_len_local _ a' _ E) by (apply (firstn_eq_le _ _ _ _ W); lia).
    rewrite (line_len_local _ _ _ E0 (firstn_eq_skipn _ _ _ _ W)). reflexivity.
  - brk H. inversion H; subst. rewrite (firstn_eq_le _ _ _ w W) by lia. rewrite E, E0, E1.
    (* the payload is there: [a'] is at least as long as what was consumed *)
    pose proof (firstn_eq_length _ _ _ W B). apply N.ltb_ge in E2.
    assert (N.ltb (N.of_nat (List.length (skipn w a'))) (le_N (firstn w a)) = false) as ->
      by (apply N.ltb_ge; rewrite skipn_length in *; lia).
    reflexivity.
Qed.

Lemma next_token_inv : forall rest row len, next_token rest = Ok (row, len) ->
  exists c args k n, rest = c :: args /\ lookup c = Some row /\
    reader_kind (row_reader row) = Some k /\ arg_len k args = Ok n /\ len = S n.
Proof.
  intros rest row len H. unfold next_token in H. destruct rest as [|c args]; [discriminate|].
  destruct (lookup c) as [r|] eqn:L; [|discriminate].
  destruct (reader_kind (row_reader r)) as [k|] eqn:K; [|discriminate].
  destruct (arg_len k args) as [n|e] eqn:A; [|discriminate].
  inversion H; subst. exists c, args, k, n. auto.
Qed.

Lemma next_token_bound : forall rest row len, next_token rest = Ok (row, len) ->
  1 <= len <= List.length rest.
Proof.
  intros rest row len H. apply next_token_inv in H.
  destruct H as (c & args & k & n & -> & _ & _ & A & ->). apply arg_len_bound in A. simpl. lia.
Qed.

Lemma next_token_local : forall r r' row len, next_token r = Ok (row, len) ->
  firstn len r' = firstn len r -> next_token r' = Ok (row, len).
Proof.
  intros r r' row len H W. apply next_token_inv in H.
  destruct H as (c & args & k & n & -> & L & K & A & ->).
  destruct r' as [|c' args']; [discriminate|]. simpl in W. injection W as -> W.
  simpl. rewrite L, K, (arg_len_local _ _ _ _ A W). reflexivity.
Qed.

Inductive chain (buf : list byte) : nat -> list token -> Prop :=
| chain_nil : forall pos, chain buf pos []
| chain_cons : forall pos row len ts,
    next_token (skipn pos buf) = Ok (row, len) ->
    chain buf (len + pos) ts ->
    chain buf pos (mkTok row pos len :: ts).

Definition is_stop (t : token) : bool := N.eqb (row_code (t_row t)) stop_code.

Fixpoint sum_len (ts : list token) : nat :=
  match ts with [] => 0 | t :: r => t_len t + sum_len r end.

Lemma sum_len_app_one : forall a t, sum_len (a ++ [t]) = sum_len a + t_len t.
Proof. induction a as [|x a IH]; simpl; intros; [lia|]. rewrite IH. lia. Qed.

Lemma sum_len_map : forall f ts, (forall t, t_len (f t) = t_len t) -> sum_len (map f ts) = sum_len ts.
Proof. intros f ts F. induction ts as [|t r IH]; simpl; [reflexivity|]. rewrite F, IH. reflexivity. Qed.

Lemma genops_chain : forall fuel buf pos ts st,
  genops fuel (skipn pos buf) pos = (ts, st) -> chain buf pos ts.
Proof.
  induction fuel as [|f IH]; simpl; intros buf pos ts st H.
  - inversion H. constructor.
  - destruct (next_token (skipn pos buf)) as [[row len]|e] eqn:N.
    + destruct (N.eqb (row_code row) stop_code).
      * inversion H; subst. constructor; [exact N|constructor].
      * rewrite skipn_skipn' in H.
        destruct (genops f (skipn (len + pos) buf) (len + pos)) as [ts' st'] eqn:G.
        inversion H; subst. constructor; [exact N|]. eapply IH. exact G.
    + inversion H. constructor.
Qed.

Lemma genops_at_chain : forall buf s ts st, genops_at buf s = (ts, st) -> chain buf s ts.
Proof. intros buf s ts st. apply genops_chain. Qed.

Lemma genops_done : forall fuel rest pos ts,
  genops fuel rest pos = (ts, TDone) ->
  exists ts' tl, ts = (ts' ++ [tl])%list /\ is_stop tl = true /\ forallb (fun t => negb (is_stop t)) ts' = true.
Proof.
  induction fuel as [|f IH]; simpl; intros rest pos ts H; [discriminate|].
  destruct (next_token rest) as [[row len]|e]; [|discriminate].
  destruct (N.eqb (row_code row) stop_code) eqn:S.
  - inversion H; subst. exists [], (mkTok row pos len). split; [reflexivity|]. split; [exact S|reflexivity].
  - destruct (genops f (skipn len rest) (len + pos)) as [ts' st'] eqn:G.
    inversion H; subst. destruct (IH _ _ _ G) as (a & tl & -> & B & C).
    exists (mkTok row pos len :: a), tl. split; [reflexivity|]. split; [exact B|].
    cbn [forallb]. unfold is_stop at 1. cbn [t_row]. rewrite S. exact C.
Qed.

Lemma genops_not_done : forall fuel rest pos ts e,
  genops fuel rest pos = (ts, TErr e) -> forallb (fun t => negb (is_stop t)) ts = true.
Proof.
  induction fuel as [|f IH]; simpl; intros rest pos ts e H.
  - inversion H. reflexivity.
  - destruct (next_token rest) as [[row len]|e']; [|inversion H; reflexivity].
    destruct (N.eqb (row_code row) stop_code) eqn:S; [discriminate|].
    destruct (genops f (skipn len rest) (len + pos)) as [ts' st'] eqn:G.
    inversion H; subst. cbn [forallb]. unfold is_stop at 1. cbn [t_row]. rewrite S. eapply IH. exact G.
Qed.

Lemma arg_len_err : forall k a, arg_len k a <> Err EFuel.
Proof. intros k a H. destruct k; red_arg_len H; brk H; discriminate H. Qed.

Lemma next_token_err : forall rest, next_token rest <> Err EFuel.
Proof.
  unfold next_token. intros rest H. brk H. injection H as ->. eapply arg_len_err. eassumption.
Qed.

(* every token takes a byte *)
Lemma genops_no_fuel_gen : forall fuel rest pos ts st,
  List.length rest < fuel -> genops fuel rest pos = (ts, st) -> st <> TErr EFuel.
Proof.
  induction fuel as [|f IH]; simpl; intros rest pos ts st L H; [lia|].
  destruct (next_token rest) as [[row len]|e] eqn:N.
  - destruct (N.eqb (row_code row) stop_code); [inversion H; discriminate|].
    destruct (genops f (skipn len rest) (len + pos)) as [ts' st'] eqn:G.
    inversion H; subst. eapply IH; [|exact G].
    apply next_token_bound in N. rewrite skipn_length. lia.
  - inversion H. intros [= ->]. exact (next_token_err _ N).
Qed.

Lemma genops_no_fuel : forall buf start ts st, genops_at buf start = (ts, st) -> st <> TErr EFuel.
Proof.
  unfold genops_at. intros. eapply genops_no_fuel_gen; [|exact H]. lia.
Qed.

Lemma genops_local : forall f r pos ts, genops f r pos = (ts, TDone) ->
  forall f' r', firstn (sum_len ts) r' = firstn (sum_len ts) r -> List.length ts <= f' ->
  genops f' r' pos = (ts, TDone).
Proof.
  induction f as [|f IH]; simpl; intros r pos ts H f' r' W L; [discriminate|].
  destruct (next_token r) as [[row len]|e] eqn:N; [|discriminate].
  destruct (N.eqb (row_code row) stop_code) eqn:S.
  - inversion H; subst. cbn [List.length sum_len t_len] in *. destruct f' as [|f']; [lia|]. simpl.
    rewrite (next_token_local _ r' _ _ N) by (apply (firstn_eq_le _ _ _ _ W); lia). rewrite S. reflexivity.
  - destruct (genops f (skipn len r) (len + pos)) as [ts' st'] eqn:G. inversion H; subst.
    cbn [List.length sum_len t_len] in *. destruct f' as [|f']; [lia|]. simpl.
    rewrite (next_token_local _ r' _ _ N) by (apply (firstn_eq_le _ _ _ _ W); lia). rewrite S.
    rewrite (IH _ _ _ G f' (skipn len r') (firstn_eq_skipn _ _ _ _ W)) by lia. reflexivity.
Qed.

Definition shift_tok (k : nat) (t : token) : token := mkTok (t_row t) (k + t_pos t) (t_len t).

Lemma genops_shift : forall fuel rest pos k ts st, genops fuel rest pos = (ts, st) ->
  genops fuel rest (k + pos) = (map (shift_tok k) ts, st).
Proof.
  induction fuel as [|f IH]; simpl; intros rest pos k ts st H.
  - inversion H. reflexivity.
  - destruct (next_token rest) as [[row len]|e]; [|inversion H; reflexivity].
    destruct (N.eqb (row_code row) stop_code); [inversion H; reflexivity|].
    destruct (genops f (skipn len rest) (len + pos)) as [ts' st'] eqn:G.
    inversion H; subst. replace (len + (k + pos)) with (k + (len + pos)) by lia.
    rewrite (IH _ _ k _ _ G). reflexivity.
Qed.

Definition tok_ok (buf : list byte) (t : token) : Prop :=
  next_token (skipn (t_pos t) buf) = Ok (t_row t, t_len t).

Lemma tok_ok_bounds : forall buf t, tok_ok buf t -> 1 <= t_len t /\ t_pos t + t_len t <= List.length buf.
Proof.
  unfold tok_ok. intros buf t H. apply next_token_bound in H. rewrite skipn_length in H. lia.
Qed.

Lemma chain_app_inv : forall buf ts1 ts2 pos, chain buf pos (ts1 ++ ts2) -> chain buf (sum_len ts1 + pos) ts2.
Proof.
  induction ts1 as [|t ts1 IH]; simpl; intros ts2 pos H; [exact H|].
  inversion H; subst. simpl. replace (len + sum_len ts1 + pos) with (sum_len ts1 + (len + pos)) by lia.
  apply IH. assumption.
Qed.

Lemma chain_forall : forall buf pos ts, chain buf pos ts -> Forall (tok_ok buf) ts.
Proof.
  induction 1; constructor; [exact H|assumption].
Qed.

Lemma chain_head : forall buf pos t ts, chain buf pos (t :: ts) ->
  t_pos t = pos /\ tok_ok buf t /\ chain buf (t_len t + pos) ts.
Proof.
  intros. inversion H; subst. simpl. unfold tok_ok. simpl. auto.
Qed.

Lemma chain_sum_le : forall buf pos ts, chain buf pos ts -> sum_len ts <= List.length buf - pos.
Proof.
  induction 1 as [|pos row len ts N C IH]; simpl; [lia|].
  apply next_token_bound in N. rewrite skipn_length in N. lia.
Qed.

Lemma chain_len_le : forall buf pos ts, chain buf pos ts -> List.length ts <= sum_len ts.
Proof.
  induction 1 as [|pos row len ts N C IH]; simpl; [lia|]. apply next_token_bound in N. lia.
Qed.

Lemma chain_within : forall buf pos ts, chain buf pos ts ->
  Forall (fun t => t_pos t + t_len t <= sum_len ts + pos) ts.
Proof.
  induction 1 as [|pos row len ts N C IH]; constructor; cbn [sum_len t_pos t_len]; [lia|].
  eapply Forall_impl; [|exact IH]. cbn beta. intros t B. lia.
Qed.

Lemma genops_at_skipn : forall buf s ts st, genops_at (skipn s buf) 0 = (ts, st) ->
  genops_at buf s = (map (shift_tok s) ts, st).
Proof.
  unfold genops_at. cbn [skipn]. intros buf s ts st G.
  apply (genops_shift _ _ _ s) in G. rewrite Nat.add_0_r in G. exact G.
Qed.

Lemma genops_at_local : forall b ts b', genops_at b 0 = (ts, TDone) ->
  firstn (sum_len ts) b' = firstn (sum_len ts) b -> genops_at b' 0 = (ts, TDone).
Proof.
  intros b ts b' G W. pose proof (genops_at_chain _ _ _ _ G) as C.
  pose proof (chain_len_le _ _ _ C). pose proof (chain_sum_le _ _ _ C).
  pose proof (firstn_eq_length _ _ _ W ltac:(lia)).
  unfold genops_at in *. cbn [skipn] in *. apply (genops_local _ _ _ _ G _ _ W). lia.
Qed.

Definition fill (buf : list byte) (t : token) : opc :=
  mkOpc (t_row t) (t_pos t) (Some (read_at buf (t_pos t) (t_len t))).

Definition imm (buf : list byte) (t : token) : option (list byte) :=
  if argless (t_row t) then None
  else if Z.ltb 0 (row_n (t_row t))
       then Some (read_at buf (t_pos t) (1 + Z.to_nat (row_n (t_row t))))
       else None.

Definition fresh (buf : list byte) (t : token) : opc := mkOpc (t_row t) (t_pos t) (imm buf t).

(* newest first; only the newest opcode is not yet back-filled *)
Definition acc_of (buf : list byte) (done : list token) : list opc :=
  match done with
  | [] => []
  | t :: r => fresh buf t :: map (fill buf) r
  end.

Lemma fixed_len : forall buf t, tok_ok buf t -> (0 < row_n (t_row t))%Z ->
  t_len t = 1 + Z.to_nat (row_n (t_row t)).
Proof.
  unfold tok_ok. intros buf t H P. apply next_token_inv in H.
  destruct H as (c & args & k & n & E & L & K & A & ->).
  apply lookup_spec in L. destruct L as [R _]. rewrite (row_ok_fixed _ R P) in K. inversion K; subst.
  red_arg_len A. brk A. inversion A. reflexivity.
Qed.

Lemma imm_spec : forall buf t, tok_ok buf t ->
  immediate_data buf t = Ok (imm buf t) /\
  (forall d, imm buf t = Some d -> d = read_at buf (t_pos t) (t_len t)).
Proof.
  intros buf t H. unfold immediate_data, imm. destruct (argless (t_row t)); [split; [reflexivity|discriminate]|].
  destruct (Z.ltb 0 (row_n (t_row t))) eqn:P; [|split; [reflexivity|discriminate]].
  apply Z.ltb_lt in P. pose proof (fixed_len _ _ H P) as FL. pose proof (tok_ok_bounds _ _ H) as [_ B].
  rewrite <- FL. split.
  - rewrite read_at_length by exact B. rewrite Nat.eqb_refl. reflexivity.
  - intros d E. inversion E. reflexivity.
Qed.

Lemma backfill_spec : forall buf t0 older pos, tok_ok buf t0 -> t_len t0 + t_pos t0 = pos ->
  backfill buf (fresh buf t0 :: older) pos = fill buf t0 :: older.
Proof.
  intros buf t0 older pos H E. unfold backfill. cbn [o_data fresh o_pos o_row].
  destruct (imm buf t0) as [d|] eqn:I.
  - pose proof (proj2 (imm_spec _ _ H) _ I) as D. subst d. unfold fresh, fill. rewrite I. reflexivity.
  - pose proof (tok_ok_bounds _ _ H) as [L _].
    assert (Nat.ltb (t_pos t0) pos = true) as -> by (apply Nat.ltb_lt; lia).
    replace (pos - t_pos t0) with (t_len t0) by lia. reflexivity.
Qed.

(* the loop invariant as an equation: the newest token processed, if any, ends where the next one
   starts *)
Lemma load_loop_closed : forall buf ts pos done st,
  chain buf pos ts ->
  match done with [] => True | t0 :: _ => tok_ok buf t0 /\ t_len t0 + t_pos t0 = pos end ->
  load_loop buf ts st (acc_of buf done) =
    if forallb (fun t => row_has_class (t_row t)) ts
    then load_loop buf [] st (acc_of buf (rev ts ++ done))
    else LErr LNotImpl.
Proof.
  intros buf ts. induction ts as [|t more IH]; intros pos done st C D; [reflexivity|].
  apply chain_head in C. destruct C as (P & OK & C).
  cbn [load_loop forallb].
  assert (backfill buf (acc_of buf done) (t_pos t) = map (fill buf) done) as ->.
  { destruct done as [|t0 r]; [reflexivity|]. destruct D as [OK0 E0].
    cbn [acc_of map]. apply backfill_spec; [exact OK0|lia]. }
  rewrite (proj1 (imm_spec _ _ OK)).
  destruct (row_has_class (t_row t)); [|reflexivity]. cbn [andb].
  change (mkOpc (t_row t) (t_pos t) (imm buf t) :: map (fill buf) done) with (acc_of buf (t :: done)).
  rewrite (IH (t_len t + pos) (t :: done) st C) by (split; [exact OK|lia]).
  cbn [rev]. rewrite <- app_assoc. reflexivity.
Qed.

Lemma stop_imm_none : forall buf tl, tok_ok buf tl -> is_stop tl = true ->
  argless (t_row tl) = true /\ imm buf tl = None /\ t_len tl = 1 /\ row_name (t_row tl) = "STOP"%string.
Proof.
  intros buf tl H S. unfold is_stop in S. apply N.eqb_eq in S.
  unfold tok_ok in H. apply next_token_inv in H. destruct H as (c & args & k & n & E & L & K & A & LEN).
  apply lookup_spec in L. destruct L as [R _]. destruct (row_ok_stop _ R S) as [RD NM].
  assert (argless (t_row tl) = true) as AL by (unfold argless; rewrite RD; reflexivity).
  split; [exact AL|]. split; [unfold imm; rewrite AL; reflexivity|]. split; [|exact NM].
  rewrite RD in K. injection K as <-. red_arg_len A. inversion A; subst. exact LEN.
Qed.

Lemma genops_at_done : forall buf s ts, genops_at buf s = (ts, TDone) ->
  exists a tl, ts = a ++ [tl] /\ forallb (fun t => negb (is_stop t)) a = true /\ is_stop tl = true /\
               t_pos tl = sum_len a + s /\ t_len tl = 1 /\ imm buf tl = None /\
               row_name (t_row tl) = "STOP"%string.
Proof.
  intros buf s ts G. pose proof (genops_at_chain _ _ _ _ G) as C.
  destruct (genops_done _ _ _ _ G) as (a & tl & -> & ST & NS).
  apply chain_app_inv, chain_head in C. destruct C as (P & OK & _).
  destruct (stop_imm_none _ _ OK ST) as (_ & IN & L1 & NM).
  exists a, tl. repeat split; assumption.
Qed.

Lemma tokenize_inv : forall bs pos ts, tokenize bs pos = Ok ts -> genops_at bs pos = (ts, TDone).
Proof.
  unfold tokenize. intros bs pos ts H. destruct (genops_at bs pos) as [ts0 [|e]]; inversion H. reflexivity.
Qed.

Lemma tokenize_rest_irrelevant : forall b rest ts, tokenize b 0 = Ok ts -> tokenize (b ++ rest) 0 = Ok ts.
Proof.
  intros b rest ts H. apply tokenize_inv in H.
  pose proof (chain_sum_le _ _ _ (genops_at_chain _ _ _ _ H)) as B.
  unfold tokenize. rewrite (genops_at_local _ _ (b ++ rest) H); [reflexivity|]. apply firstn_app_le. lia.
Qed.

Lemma tokenize_prefix : forall pre b rest ts,
  tokenize b 0 = Ok ts ->
  tokenize (pre ++ b ++ rest) (List.length pre) = Ok (map (shift_tok (List.length pre)) ts).
Proof.
  intros pre b rest ts H. apply (tokenize_rest_irrelevant b rest), tokenize_inv in H.
  unfold tokenize. rewrite (genops_at_skipn _ _ ts TDone); [reflexivity|].
  rewrite skipn_app_exact by reflexivity. exact H.
Qed.

Lemma tokenize_no_fuel : forall bs pos, tokenize bs pos <> Err EFuel.
Proof.
  intros bs pos. unfold tokenize. destruct (genops_at bs pos) as [ts st] eqn:G.
  pose proof (genops_no_fuel _ _ _ _ G). destruct st; [discriminate|]. congruence.
Qed.

(* Pickled.load leaves STOP without data *)
Definition opc_of (buf : list byte) (t : token) : opc :=
  mkOpc (t_row t) (t_pos t) (if is_stop t then None else Some (read_at buf (t_pos t) (t_len t))).

Lemma load_stream_spec : forall buf s ts st, genops_at buf s = (ts, st) ->
  load_stream buf s =
    if forallb (fun t => row_has_class (t_row t)) ts
    then match st with
         | TDone => LOk (map (opc_of buf) ts, sum_len ts + s)
         | TErr EValue => LErr (match ts with [] => LEmpty | _ :: _ => LDecode end)
         | TErr e => LErr (LOther e)
         end
    else LErr LNotImpl.
Proof.
  intros buf s ts st G. unfold load_stream. rewrite G. change (@nil opc) with (acc_of buf []).
  rewrite (load_loop_closed buf ts s [] st (genops_at_chain _ _ _ _ G) I), app_nil_r.
  destruct (forallb _ ts); [|reflexivity]. cbn [load_loop]. destruct st as [|e].
  - destruct (genops_at_done _ _ _ G) as (a & tl & -> & NS & ST & P & L1 & IN & _).
    rewrite rev_app_distr. cbn [rev app acc_of o_data o_pos fresh]. rewrite IN.
    rewrite map_rev, rev_involutive, map_app, sum_len_app_one, L1, P. cbn [map].
    unfold opc_of at 2. rewrite ST. f_equal. f_equal; [|lia]. f_equal; [|unfold fresh; rewrite IN; reflexivity].
    (* no STOP before the last token *)
    apply map_ext_in. intros t IN'. rewrite forallb_forall in NS. apply NS in IN'.
    unfold opc_of, fill. destruct (is_stop t); [discriminate|reflexivity].
  - destruct e; try reflexivity. destruct ts as [|t r]; [reflexivity|]. cbn [rev]. destruct (rev r); reflexivity.
Qed.

Lemma load_stream_no_fuel : forall buf s, load_stream buf s <> LErr (LOther EFuel).
Proof.
  intros buf s. destruct (genops_at buf s) as [ts st] eqn:G. rewrite (load_stream_spec _ _ _ _ G).
  pose proof (genops_no_fuel _ _ _ _ G) as NF.
  destruct (forallb _ ts); [|discriminate]. destruct st as [|e]; [discriminate|].
  destruct e; try congruence. destruct ts; discriminate.
Qed.

(* the recording reader (non-seekable input): every read of the loop body falls within the bytes
   genops has already taken *)
Lemma loop_step_from_recorded : forall buf t acc, tok_ok buf t ->
  backfill (recorded buf t) acc (t_pos t) = backfill buf acc (t_pos t) /\
  immediate_data (recorded buf t) t = immediate_data buf t.
Proof.
  intros buf t acc OK. unfold recorded. split.
  - unfold backfill. destruct acc as [|prev older]; [reflexivity|].
    destruct (o_data prev); [reflexivity|].
    destruct (Nat.ltb (o_pos prev) (t_pos t)) eqn:L; [|reflexivity].
    apply Nat.ltb_lt in L. rewrite read_at_firstn by lia. reflexivity.
  - unfold immediate_data. destruct (argless (t_row t)); [reflexivity|].
    destruct (Z.ltb 0 (row_n (t_row t))) eqn:P; [|reflexivity].
    apply Z.ltb_lt in P. rewrite <- (fixed_len _ _ OK P).
    rewrite read_at_firstn by lia. reflexivity.
Qed.

Lemma load_loop_rec_eq : forall buf ts st acc, Forall (tok_ok buf) ts ->
  load_loop_rec buf ts st acc = load_loop buf ts st acc.
Proof.
  intros buf ts st. induction ts as [|t more IH]; intros acc F; [reflexivity|].
  inversion F as [|x l OK F']; subst. cbn [load_loop_rec load_loop].
  destruct (loop_step_from_recorded buf t acc OK) as [-> ->].
  destruct (immediate_data buf t); [|reflexivity].
  destruct (row_has_class (t_row t)); [|reflexivity]. apply IH. exact F'.
Qed.

Lemma load_stream_rec_eq : forall buf start, load_stream_rec buf start = load_stream buf start.
Proof.
  intros buf start. unfold load_stream_rec, load_stream.
  destruct (genops_at buf start) as [ts st] eqn:G.
  rewrite (load_loop_rec_eq buf ts st [] (chain_forall _ _ _ (genops_at_chain _ _ _ _ G))). reflexivity.
Qed.

Lemma dumps_app : forall a b x y, dumps a = Ok x -> dumps b = Ok y -> dumps (a ++ b) = Ok (x ++ y).
Proof.
  induction a as [|o a IH]; simpl; intros b x y A B.
  - inversion A; subst. exact B.
  - destruct (opc_data o) as [d|]; [|discriminate]. destruct (dumps a) as [t|] eqn:T; [|discriminate].
    inversion A; subst. rewrite (IH b t y eq_refl B). rewrite app_assoc. reflexivity.
Qed.

Lemma dumps_app_inv : forall a b z, dumps (a ++ b) = Ok z ->
  exists x y, dumps a = Ok x /\ dumps b = Ok y /\ z = x ++ y.
Proof.
  induction a as [|o a IH]; simpl; intros b z H.
  - exists [], z. auto.
  - destruct (opc_data o) as [d|]; [|discriminate].
    destruct (dumps (a ++ b)) as [t|] eqn:T; [|discriminate].
    destruct (IH b t T) as (x & y & -> & -> & ->). inversion H; subst.
    exists (d ++ x), y. rewrite app_assoc. auto.
Qed.

Lemma opc_of_data : forall buf t, tok_ok buf t ->
  opc_data (opc_of buf t) = Ok (read_at buf (t_pos t) (t_len t)).
Proof.
  intros buf t OK. unfold opc_data, opc_of. cbn [o_data]. destruct (is_stop t) eqn:ST; [|reflexivity].
  destruct (stop_imm_none _ _ OK ST) as (AL & _ & L1 & _).
  destruct (next_token_inv _ _ _ OK) as (c & args & k & n & E & L & _).
  unfold encode. cbn [o_row]. rewrite AL, (code_byte_lookup _ _ L), L1. unfold read_at. rewrite E. reflexivity.
Qed.

Lemma dumps_parsed : forall buf pos ts, chain buf pos ts ->
  dumps (map (opc_of buf) ts) = Ok (read_at buf pos (sum_len ts)).
Proof.
  induction 1 as [pos|pos row len ts N C IH]; [reflexivity|].
  cbn [map dumps sum_len]. rewrite (opc_of_data buf (mkTok row pos len) N), IH.
  cbn [t_pos t_len]. rewrite read_at_cat. reflexivity.
Qed.

Definition shift_opc (k : nat) (o : opc) : opc := mkOpc (o_row o) (k + o_pos o) (o_data o).

Lemma dumps_shift : forall k ops, dumps (map (shift_opc k) ops) = dumps ops.
Proof.
  induction ops as [|o r IH]; [reflexivity|]. cbn [map dumps]. rewrite IH. reflexivity.
Qed.

Definition ends_in_stop (ops : list opc) (e : nat) : Prop :=
  exists ops' s, ops = ops' ++ [s] /\ row_name (o_row s) = "STOP"%string /\ o_data s = None /\
                 1 + o_pos s = e.

Definition starts_at (ops : list opc) (start : nat) : Prop :=
  match ops with o :: _ => o_pos o = start | [] => False end.

Lemma load_stream_exact : forall buf start ops e,
  load_stream buf start = LOk (ops, e) ->
  dumps ops = Ok (read_at buf start (e - start)) /\
  start < e <= List.length buf /\
  ends_in_stop ops e /\ starts_at ops start /\
  Forall (fun o => row_has_class (o_row o) = true) ops.
Proof.
  intros buf start ops e H. destruct (genops_at buf start) as [ts st] eqn:G.
  rewrite (load_stream_spec _ _ _ _ G) in H.
  destruct (forallb _ ts) eqn:CL; [|discriminate]. destruct st as [|er]; [|destruct er; discriminate].
  injection H as <- <-.
  pose proof (genops_at_chain _ _ _ _ G) as C. pose proof (chain_sum_le _ _ _ C) as EB.
  destruct (genops_at_done _ _ _ G) as (a & tl & E & _ & ST & P & L1 & _ & NM).
  split; [|split; [|split; [|split]]].
  - rewrite (dumps_parsed _ _ _ C). f_equal. f_equal. lia.
  - rewrite E, sum_len_app_one in *. lia.
  - exists (map (opc_of buf) a), (opc_of buf tl). rewrite E, map_app, sum_len_app_one.
    split; [reflexivity|]. unfold opc_of. rewrite ST. cbn [o_row o_data o_pos].
    split; [exact NM|]. split; [reflexivity|lia].
  - destruct C; [destruct a; discriminate E|]. reflexivity.
  - apply Forall_map, Forall_forall. rewrite forallb_forall in CL. exact CL.
Qed.

Lemma opc_of_skipn : forall buf s t, opc_of buf (shift_tok s t) = shift_opc s (opc_of (skipn s buf) t).
Proof.
  intros buf s t. unfold opc_of, shift_tok, shift_opc, is_stop, read_at. cbn [t_row t_pos t_len o_row o_pos o_data].
  rewrite skipn_skipn', (Nat.add_comm s). reflexivity.
Qed.

Lemma load_stream_skipn : forall buf s,
  load_stream buf s = match load_stream (skipn s buf) 0 with
                      | LOk (p, n) => LOk (map (shift_opc s) p, s + n)
                      | LErr x => LErr x
                      end.
Proof.
  intros buf s. destruct (genops_at (skipn s buf) 0) as [ts st] eqn:G.
  rewrite (load_stream_spec _ _ _ _ G), (load_stream_spec _ _ _ _ (genops_at_skipn _ _ _ _ G)).
  rewrite forallb_map. cbn [shift_tok t_row].
  destruct (forallb _ ts); [|reflexivity]. destruct st as [|e].
  - rewrite !map_map, (sum_len_map (shift_tok s)) by reflexivity. f_equal. f_equal; [|lia].
    apply map_ext. intros t. apply opc_of_skipn.
  - destruct e; try reflexivity. destruct ts; reflexivity.
Qed.

Lemma load_stream_local : forall b p n b', load_stream b 0 = LOk (p, n) ->
  firstn n b' = firstn n b -> load_stream b' 0 = LOk (p, n).
Proof.
  intros b p n b' H W. destruct (genops_at b 0) as [ts st] eqn:G. rewrite (load_stream_spec _ _ _ _ G) in H.
  destruct (forallb _ ts) eqn:CL; [|discriminate]. destruct st as [|e]; [|destruct e; discriminate].
  injection H as <- <-. rewrite Nat.add_0_r in *.
  rewrite (load_stream_spec _ _ _ _ (genops_at_local _ _ _ G W)), CL, Nat.add_0_r. f_equal. f_equal.
  apply map_ext_in. intros t IN. unfold opc_of. f_equal. destruct (is_stop t); [reflexivity|]. f_equal.
  pose proof (chain_within _ _ _ (genops_at_chain _ _ _ _ G)) as F. rewrite Forall_forall in F.
  specialize (F _ IN).
  rewrite <- (read_at_firstn b' (sum_len ts)), <- (read_at_firstn b (sum_len ts)), W by lia. reflexivity.
Qed.

Lemma load_stream_at : forall b ops e rest buf s,
  load_stream b 0 = LOk (ops, e) -> skipn s buf = b ++ rest ->
  load_stream buf s = LOk (map (shift_opc s) ops, s + e).
Proof.
  intros b ops e rest buf s H E. destruct (load_stream_exact _ _ _ _ H) as (_ & B & _).
  rewrite load_stream_skipn, E, (load_stream_local _ _ _ (b ++ rest) H); [reflexivity|].
  apply firstn_app_le. lia.
Qed.

Lemma load_stream_prefix : forall pre b rest ops e,
  load_stream b 0 = LOk (ops, e) ->
  load_stream (pre ++ b ++ rest) (List.length pre)
    = LOk (map (shift_opc (List.length pre)) ops, List.length pre + e).
Proof.
  intros pre b rest ops e H. apply (load_stream_at b _ _ rest _ _ H), skipn_app_exact. reflexivity.
Qed.

Lemma load_stream_eof : forall buf start, List.length buf <= start -> load_stream buf start = LErr LEmpty.
Proof.
  intros buf start L. unfold load_stream, genops_at. rewrite skipn_all2 by lia. reflexivity.
Qed.

Definition complete (b : list byte) (p : list opc) : Prop := load_stream b 0 = LOk (p, List.length b).

Fixpoint shift_parts (k : nat) (items : list (list byte * list opc)) : list (list opc) :=
  match items with
  | [] => []
  | (b, p) :: r => map (shift_opc k) p :: shift_parts (List.length b + k) r
  end.

Lemma stacked_loop_concat : forall items tail buf pos fuel acc,
  Forall (fun bp => complete (fst bp) (snd bp)) items ->
  skipn pos buf = List.concat (map fst items) ++ tail ->
  load_stream buf (List.length (List.concat (map fst items)) + pos) = LErr LEmpty ->
  List.length buf - pos + 1 < fuel ->
  stacked_loop fuel buf pos acc
    = LOk (rev acc ++ shift_parts pos items, List.length (List.concat (map fst items)) + pos).
Proof.
  induction items as [|[b p] items IH]; intros tail buf pos fuel acc F W E L;
    (destruct fuel as [|f]; [lia|]);
    cbn [stacked_loop map List.concat fst List.length shift_parts Nat.add] in *.
  - rewrite E, app_nil_r. reflexivity.
  - inversion F as [|x l CB F']; subst. cbn [fst snd] in CB.
    rewrite <- app_assoc in W. rewrite app_length in *.
    rewrite (load_stream_at _ _ _ _ _ _ CB W).
    destruct (load_stream_exact _ _ _ _ CB) as (_ & B & _ & SA & _).
    destruct p as [|o r]; [destruct SA|].
    (* a complete pickle is not empty, so the fuel left covers the data left *)
    pose proof (f_equal (@List.length byte) W) as LW. rewrite skipn_length, app_length in LW.
    rewrite (Nat.add_comm pos), (IH tail buf (List.length b + pos) f); [ | exact F' | | | lia].
    + cbn [map rev]. rewrite <- app_assoc. f_equal. f_equal. lia.
    + rewrite <- skipn_skipn', W. apply skipn_app_exact. reflexivity.
    + rewrite <- E. f_equal. lia.
Qed.

(* every successful iteration strictly advances *)
Lemma stacked_no_fuel_gen : forall fuel buf pos acc,
  List.length buf - pos + 1 < fuel -> stacked_loop fuel buf pos acc <> LErr (LOther EFuel).
Proof.
  induction fuel as [|f IH]; intros buf pos acc L; [lia|]. cbn [stacked_loop].
  destruct (load_stream buf pos) as [[ops e]|er] eqn:LS.
  - destruct ops as [|o r]; [discriminate|].
    destruct (load_stream_exact _ _ _ _ LS) as (_ & B & _). apply IH. lia.
  - destruct er as [| | |x]; try discriminate.
    intro X. inversion X; subst. clear X.
    exact (load_stream_no_fuel buf pos LS).
Qed.

Lemma stacked_no_fuel : forall buf start, stacked_stream buf start <> LErr (LOther EFuel).
Proof.
  intros buf start. unfold stacked_stream.
  pose proof (stacked_no_fuel_gen (2 + (List.length buf - start)) buf start [] ltac:(lia)) as NF.
  destruct (stacked_loop (2 + (List.length buf - start)) buf start []) as [[ps e]|er]; [|exact NF].
  destruct ps; discriminate.
Qed.

Lemma stacked_loop_sound : forall fuel buf pos acc parts e start,
  stacked_loop fuel buf pos acc = LOk (parts, e) ->
  start <= pos ->
  dumps (List.concat (rev acc)) = Ok (read_at buf start (pos - start)) ->
  Forall (fun p => exists q, ends_in_stop p q) acc ->
  dumps (List.concat parts) = Ok (read_at buf start (e - start)) /\ pos <= e /\
  Forall (fun p => exists q, ends_in_stop p q) parts.
Proof.
  induction fuel as [|f IH]; intros buf pos acc parts e start H S D F; [discriminate|].
  cbn [stacked_loop] in H.
  destruct (load_stream buf pos) as [[[|o r] e1]|[]] eqn:LS; try discriminate.
  (* the two ways out of the loop: an empty parse, EmptyPickleError *)
  1, 3: injection H as <- <-; split; [exact D|]; split; [lia|apply Forall_rev; exact F].
  destruct (load_stream_exact _ _ _ _ LS) as (DX & B & ES & _).
  destruct (IH buf e1 ((o :: r) :: acc) parts e start H ltac:(lia)) as (A1 & A2 & A3).
  - cbn [rev]. rewrite concat_app. cbn [List.concat]. rewrite app_nil_r, (dumps_app _ _ _ _ D DX).
    f_equal. replace pos with ((pos - start) + start) at 2 by lia. rewrite read_at_cat. f_equal. lia.
  - constructor; [eauto|exact F].
  - split; [exact A1|]. split; [lia|exact A3].
Qed.

Lemma load_model_stream : forall k bs off r, load_model k bs off = LOk r ->
  load_stream (match k with KNonSeekable => skipn off bs | _ => bs end)
              (match k with KSeekable => off | _ => 0 end) = LOk (l_ops r, l_end r) /\
  l_caller r = match k with
               | KBytes => None
               | KSeekable => Some (l_end r)
               | KNonSeekable => Some (off + l_end r)
               end.
Proof.
  unfold load_model. intros k bs off r H.
  destruct k; cbv iota; [| |rewrite load_stream_rec_eq in H];
    destruct (load_stream _ _) as [[ops e]|x]; inversion H; split; reflexivity.
Qed.

Lemma seekable_exact : forall bs o r,
  load_model KSeekable bs o = LOk r ->
  dumps (l_ops r) = Ok (firstn (l_end r - o) (skipn o bs)) /\
  ends_in_stop (l_ops r) (l_end r) /\ starts_at (l_ops r) o /\
  o < l_end r <= List.length bs /\
  l_caller r = Some (l_end r) /\
  caller_rest bs r = Some (skipn (l_end r) bs) /\
  bs = firstn o bs ++ firstn (l_end r - o) (skipn o bs) ++ skipn (l_end r) bs.
Proof.
  intros bs o r H. apply load_model_stream in H. cbv iota in H. destruct H as [LS LC].
  destruct (load_stream_exact _ _ _ _ LS) as (D & B & ES & SA & _).
  unfold caller_rest. rewrite LC. repeat split; try assumption; try lia.
  replace (skipn (l_end r) bs) with (skipn ((l_end r - o) + o) bs) by (f_equal; lia).
  apply firstn_mid_skipn.
Qed.

Lemma bytes_exact : forall bs o r,
  load_model KBytes bs o = LOk r ->
  dumps (l_ops r) = Ok (firstn (l_end r) bs) /\
  ends_in_stop (l_ops r) (l_end r) /\ starts_at (l_ops r) 0 /\
  0 < l_end r <= List.length bs /\ l_caller r = None.
Proof.
  intros bs o r H. apply load_model_stream in H. cbv iota in H. destruct H as [LS LC].
  destruct (load_stream_exact _ _ _ _ LS) as (D & B & ES & SA & _).
  rewrite Nat.sub_0_r in D. repeat split; try assumption; lia.
Qed.

Lemma nonseekable_as_bytes_model : forall bs off r,
  load_model KNonSeekable bs off = LOk r ->
  load_model KBytes (skipn off bs) 0 = LOk (mkLoaded (l_ops r) (l_end r) None).
Proof.
  intros bs off r H. apply load_model_stream in H. destruct H as [LS _].
  unfold load_model. rewrite LS. reflexivity.
Qed.

Definition shift_loaded (k : nat) (r : loaded) : loaded :=
  mkLoaded (map (shift_opc k) (l_ops r)) (k + l_end r)
           (match l_caller r with Some p => Some (k + p) | None => None end).

Lemma seekable_prefix : forall pre b rest r,
  load_model KSeekable b 0 = LOk r ->
  load_model KSeekable (pre ++ b ++ rest) (List.length pre) = LOk (shift_loaded (List.length pre) r).
Proof.
  intros pre b rest r H. unfold load_model in *.
  destruct (load_stream b 0) as [[ops e]|er] eqn:LS; [|discriminate]. inversion H; subst; clear H.
  rewrite (load_stream_prefix pre b rest _ _ LS). reflexivity.
Qed.

Lemma bytes_rest_irrelevant : forall b rest r o o',
  load_model KBytes b o = LOk r -> load_model KBytes (b ++ rest) o' = LOk r.
Proof.
  intros b rest r o o' H. unfold load_model in *.
  destruct (load_stream b 0) as [[ops e]|er] eqn:LS; [|discriminate].
  destruct (load_stream_exact _ _ _ _ LS) as (_ & B & _).
  rewrite (load_stream_local _ _ _ (b ++ rest) LS); [exact H|]. apply firstn_app_le. lia.
Qed.

Lemma shift_parts_spec : forall items k, Forall (fun bp => complete (fst bp) (snd bp)) items ->
  List.length (shift_parts k items) = List.length items /\
  Forall2 (fun part bp => dumps part = Ok (fst bp)) (shift_parts k items) items.
Proof.
  induction items as [|[b p] items IH]; intros k F; [split; [reflexivity|constructor]|].
  inversion F as [|x l C F']; subst. cbn [fst snd] in C. cbn [shift_parts List.length].
  destruct (IH (List.length b + k) F') as [A B]. split; [rewrite A; reflexivity|].
  constructor; [|exact B]. cbn [fst]. rewrite dumps_shift.
  destruct (load_stream_exact _ _ _ _ C) as (D & _). rewrite D. unfold read_at. cbn [skipn].
  rewrite Nat.sub_0_r, firstn_all. reflexivity.
Qed.

Lemma stacked_stream_partition : forall items pre tail,
  items <> [] ->
  Forall (fun bp => complete (fst bp) (snd bp)) items ->
  load_stream (pre ++ List.concat (map fst items) ++ tail)
              (List.length pre + List.length (List.concat (map fst items))) = LErr LEmpty ->
  stacked_stream (pre ++ List.concat (map fst items) ++ tail) (List.length pre)
    = LOk (shift_parts (List.length pre) items, List.length pre + List.length (List.concat (map fst items))) /\
  List.length (shift_parts (List.length pre) items) = List.length items /\
  Forall2 (fun part bp => dumps part = Ok (fst bp)) (shift_parts (List.length pre) items) items.
Proof.
  intros items pre tail NE F E. split; [|apply shift_parts_spec; exact F].
  unfold stacked_stream. rewrite (Nat.add_comm (List.length pre)) in *.
  rewrite (stacked_loop_concat items tail _ _ _ [] F (skipn_app_exact _ _ _ eq_refl) E) by lia.
  destruct items as [|[b p] items]; [congruence|]. reflexivity.
Qed.

Lemma stacked_bytes_partition : forall items,
  items <> [] ->
  Forall (fun bp => complete (fst bp) (snd bp)) items ->
  stacked_load KBytes (List.concat (map fst items)) 0
    = LOk (shift_parts 0 items, List.length (List.concat (map fst items))) /\
  List.length (shift_parts 0 items) = List.length items /\
  Forall2 (fun part bp => dumps part = Ok (fst bp)) (shift_parts 0 items) items.
Proof.
  intros items NE F. pose proof (stacked_stream_partition items [] [] NE F) as P.
  cbn [app List.length Nat.add] in P. rewrite app_nil_r in P. apply P, load_stream_eof, le_n.
Qed.
