(* C10: the six comparison operators of Severity as implemented agree with the documented rank on every
   pair of members (one sweep over the generated table); the per-pickle severity is Python's max() over
   the findings, and each face of the safety check is a function of its rank. *)
From Coq Require Import List Bool Arith Lia.
From Verif Require Import BaseProofs Severity.
Import ListNotations.
Local Open Scope nat_scope.

Definition wf (s : sev) : Prop := s < nsev.

Definition ops_ok (a b : sev) : bool :=
  Bool.eqb (sev_lt a b) (doc_rank a <? doc_rank b) &&
  Bool.eqb (sev_le a b) (doc_rank a <=? doc_rank b) &&
  Bool.eqb (sev_eq a b) (doc_rank a =? doc_rank b) &&
  Bool.eqb (sev_ne a b) (negb (doc_rank a =? doc_rank b)) &&
  Bool.eqb (sev_gt a b) (doc_rank b <? doc_rank a) &&
  Bool.eqb (sev_ge a b) (doc_rank b <=? doc_rank a) &&
  (negb (doc_rank a =? doc_rank b) || (a =? b)).

Lemma nsev_6 : nsev = 6.
Proof. reflexivity. Qed.

Lemma LIKELY_SAFE_rank : doc_rank LIKELY_SAFE = 0.
Proof. reflexivity. Qed.

Lemma LIKELY_SAFE_wf : wf LIKELY_SAFE.
Proof. unfold wf. rewrite nsev_6. change LIKELY_SAFE with 0. lia. Qed.

Lemma table_row a : wf a -> (doc_rank a <? 6) && forallb (ops_ok a) (seq 0 nsev) = true.
Proof. revert a. apply (below_forallb _ nsev). vm_compute. reflexivity. Qed.

Lemma doc_rank_lt6 a : wf a -> doc_rank a < 6.
Proof. intros Ha. apply Nat.ltb_lt. exact (proj1 (andb_prop _ _ (table_row a Ha))). Qed.

Lemma ops_spec a b : wf a -> wf b ->
  sev_lt a b = (doc_rank a <? doc_rank b) /\
  sev_le a b = (doc_rank a <=? doc_rank b) /\
  sev_eq a b = (doc_rank a =? doc_rank b) /\
  sev_ne a b = negb (doc_rank a =? doc_rank b) /\
  sev_gt a b = (doc_rank b <? doc_rank a) /\
  sev_ge a b = (doc_rank b <=? doc_rank a) /\
  (doc_rank a = doc_rank b -> a = b) /\ doc_rank a < 6 /\ nsev = 6.
Proof.
  intros Ha Hb.
  pose proof (below_forallb _ nsev (proj2 (andb_prop _ _ (table_row a Ha))) b Hb) as H.
  unfold ops_ok in H. apply andb_prop in H. destruct H as [H Hinj].
  repeat (apply andb_prop in H; destruct H as [H ?]).
  repeat split; try (apply Bool.eqb_prop; assumption).
  - intros E. apply Nat.eqb_eq in E. rewrite E in Hinj. apply Nat.eqb_eq. exact Hinj.
  - exact (doc_rank_lt6 a Ha).
Qed.

Lemma le_spec a b : wf a -> wf b -> sev_le a b = (doc_rank a <=? doc_rank b).
Proof. intros Ha Hb. destruct (ops_spec a b Ha Hb) as (_ & H & _). exact H. Qed.
Lemma gt_spec a b : wf a -> wf b -> sev_gt a b = (doc_rank b <? doc_rank a).
Proof. intros Ha Hb. destruct (ops_spec a b Ha Hb) as (_ & _ & _ & _ & H & _). exact H. Qed.
Lemma rank_inj a b : wf a -> wf b -> doc_rank a = doc_rank b -> a = b.
Proof. intros Ha Hb. destruct (ops_spec a b Ha Hb) as (_ & _ & _ & _ & _ & _ & H & _). exact H. Qed.

Lemma rank0_iff a : wf a -> (doc_rank a = 0 <-> a = LIKELY_SAFE).
Proof.
  intros Ha. split; [|intros ->; exact LIKELY_SAFE_rank].
  intros E. apply rank_inj; [exact Ha | exact LIKELY_SAFE_wf | rewrite LIKELY_SAFE_rank; exact E].
Qed.

Lemma eq_safe_spec a : wf a -> sev_eq a LIKELY_SAFE = (doc_rank a =? 0).
Proof.
  intros Ha. destruct (ops_spec a _ Ha LIKELY_SAFE_wf) as (_ & _ & H & _). rewrite H, LIKELY_SAFE_rank. reflexivity.
Qed.

Lemma not_gt_safe_spec a : wf a -> negb (sev_gt a LIKELY_SAFE) = (doc_rank a =? 0).
Proof.
  intros Ha. rewrite (gt_spec a _ Ha LIKELY_SAFE_wf), LIKELY_SAFE_rank. destruct (doc_rank a); reflexivity.
Qed.

Lemma py_max_step x cur : wf x -> wf cur ->
  let c := if sev_gt x cur then x else cur in
  wf c /\ (c = cur \/ c = x) /\ doc_rank cur <= doc_rank c /\ doc_rank x <= doc_rank c.
Proof.
  intros Hx Hc. rewrite (gt_spec x cur Hx Hc).
  destruct (Nat.ltb_spec (doc_rank cur) (doc_rank x)); repeat split; auto; lia.
Qed.

Lemma py_max_spec : forall l cur,
  wf cur -> Forall wf l ->
  let m := py_max cur l in
  wf m /\ In m (cur :: l) /\ (forall x, In x (cur :: l) -> doc_rank x <= doc_rank m).
Proof.
  induction l as [|x r IH]; intros cur Hc Hl; cbn [py_max].
  - split; [exact Hc|]. split; [left; reflexivity|].
    intros y [<-|[]]. lia.
  - inversion Hl as [|? ? Hx Hr]; subst.
    destruct (py_max_step x cur Hx Hc) as (Wc & Ic & Uc & Ux).
    set (c := if sev_gt x cur then x else cur) in *.
    destruct (IH c Wc Hr) as (W & I & U). split; [exact W|]. split.
    + destruct I as [<-|I]; [|right; right; exact I].
      destruct Ic as [->| ->]; [left | right; left]; reflexivity.
    + pose proof (U c (or_introl eq_refl)) as Um.
      intros y [<-|[<-|Hy]]; [lia | lia | apply U; right; exact Hy].
Qed.

Lemma severity_max rs : Forall wf rs -> rs <> [] ->
  wf (severity rs) /\ In (severity rs) rs /\ (forall x, In x rs -> doc_rank x <= doc_rank (severity rs)).
Proof.
  destruct rs as [|x r]; intros H Hn; [congruence|].
  apply py_max_spec; [exact (Forall_inv H) | exact (Forall_inv_tail H)].
Qed.

Lemma severity_wf rs : Forall wf rs -> wf (severity rs).
Proof.
  intros H. destruct rs as [|x r]; [exact LIKELY_SAFE_wf|]. apply (severity_max _ H). discriminate.
Qed.

Lemma severity_upper rs : Forall wf rs -> forall x, In x rs -> doc_rank x <= doc_rank (severity rs).
Proof.
  intros H. destruct rs as [|y r]; [intros x []|]. apply (severity_max _ H). discriminate.
Qed.

Lemma severity_member rs : Forall wf rs -> rs <> [] -> In (severity rs) rs.
Proof. intros H Hn. apply (severity_max rs H Hn). Qed.

Lemma severity_safe_iff rs :
  Forall wf rs -> (severity rs = LIKELY_SAFE <-> forall x, In x rs -> x = LIKELY_SAFE).
Proof.
  intros H. split.
  - intros E x Hx. pose proof (severity_upper rs H x Hx) as U.
    rewrite E, LIKELY_SAFE_rank in U.
    apply rank0_iff; [|lia]. rewrite Forall_forall in H. apply H; exact Hx.
  - intros A. destruct rs as [|y r]; [reflexivity|].
    apply A. apply severity_member; [exact H|discriminate].
Qed.

(* the second hypothesis: no analysis reports LIKELY_SAFE as a finding *)
Lemma severity_safe_iff_nil rs :
  Forall wf rs -> (forall x, In x rs -> x <> LIKELY_SAFE) ->
  (severity rs = LIKELY_SAFE <-> rs = []).
Proof.
  intros H Hn. rewrite (severity_safe_iff rs H). split.
  - intros A. destruct rs as [|y r]; [reflexivity|].
    exfalso. apply (Hn y (or_introl eq_refl)). apply A. left; reflexivity.
  - intros ->. intros x [].
Qed.

Definition rank_of (p : pickle_findings) : nat := doc_rank (severity p).

Lemma face_ils_spec p : Forall wf p -> face_is_likely_safe p = (rank_of p =? 0).
Proof. intros H. apply eq_safe_spec, severity_wf, H. Qed.

Lemma face_bool_spec p : Forall wf p -> face_bool p = (rank_of p =? 0).
Proof.
  intros H. apply Bool.eq_true_iff_eq. unfold face_bool, rank_of.
  rewrite forallb_forall, Nat.eqb_eq, (rank0_iff _ (severity_wf p H)), (severity_safe_iff p H).
  rewrite Forall_forall in H.
  split; intros A x Hx; specialize (A x Hx); rewrite (eq_safe_spec x (H x Hx)), Nat.eqb_eq in *;
    apply (rank0_iff x (H x Hx)); exact A.
Qed.

Lemma face_loader_spec thr p :
  wf thr -> Forall wf p -> face_loader_raises thr p = (doc_rank thr <? rank_of p).
Proof.
  intros Ht H. unfold face_loader_raises, rank_of.
  rewrite (le_spec _ _ (severity_wf p H) Ht). symmetry. apply Nat.ltb_antisym.
Qed.

Lemma face_cli_spec ps :
  Forall (Forall wf) ps ->
  (face_cli_exit ps = 0 <-> forall p, In p ps -> rank_of p = 0) /\
  (face_cli_exit ps = 0 \/ face_cli_exit ps = 1).
Proof.
  intros H. unfold face_cli_exit.
  assert (forallb (fun p => negb (sev_gt (severity p) LIKELY_SAFE)) ps = true <->
          forall p, In p ps -> rank_of p = 0) as E.
  { rewrite forallb_forall. rewrite Forall_forall in H.
    split; intros A p Hp; specialize (A p Hp);
      rewrite (not_gt_safe_spec _ (severity_wf p (H p Hp))) in *; apply Nat.eqb_eq; exact A. }
  destruct (forallb _ ps).
  - split; [|left; reflexivity]. split; [intros _; apply E; reflexivity | reflexivity].
  - split; [|right; reflexivity]. split; [discriminate | intros A; apply E in A; discriminate].
Qed.
