(* C07, the nested loaders of model/MLNest.v.  Restricting an outcome to the allowlist commutes with
   sequencing, so on a tree whose loaders are all mediated the ML run is the stock run restricted; a tree
   that follows the generated table of loader paths from a replaced entry point is such a tree. *)
From Coq Require Import List String Bool.
From Verif Require Import BaseProofs Allowlist AllowlistProofs LoaderPaths MLNest.
Import ListNotations.
Local Open Scope list_scope.

Section NodeInd.
  Variable P : node -> Prop.
  Variable Q : ev -> Prop.
  Hypothesis HN : forall k evs, Forall Q evs -> P (Node k evs).
  Hypothesis HG : forall g, Q (EGlob g).
  Hypothesis HC : forall c ct ok ch, Forall P ch -> Q (ECall c ct ok ch).

  Fixpoint node_ind2 (n : node) : P n :=
    match n with
    | Node k evs =>
        HN k evs ((fix go (l : list ev) : Forall Q l :=
                     match l with
                     | [] => Forall_nil Q
                     | e :: r => Forall_cons e (ev_ind2 e) (go r)
                     end) evs)
    end
  with ev_ind2 (e : ev) : Q e :=
    match e with
    | EGlob g => HG g
    | ECall c ct ok ch =>
        HC c ct ok ch ((fix go (l : list node) : Forall P l :=
                          match l with
                          | [] => Forall_nil P
                          | n :: r => Forall_cons n (node_ind2 n) (go r)
                          end) ch)
    end.
End NodeInd.

Lemma first_refused_app a l1 l2 :
  first_refused a (l1 ++ l2) =
  match first_refused a l1 with Some g => Some g | None => first_refused a l2 end.
Proof.
  induction l1 as [|g r IH]; simpl; [reflexivity|].
  destruct (spec_permits a g); [exact IH|reflexivity].
Qed.

Lemma take_permitted_app a l1 l2 :
  take_permitted a (l1 ++ l2) =
  match first_refused a l1 with
  | Some _ => take_permitted a l1
  | None => l1 ++ take_permitted a l2
  end.
Proof.
  induction l1 as [|g r IH]; simpl; [reflexivity|].
  destruct (spec_permits a g); [|reflexivity].
  rewrite IH. destruct (first_refused a r); reflexivity.
Qed.

Lemma take_permitted_all a gs : Forall (fun g => spec_permits a g = true) (take_permitted a gs).
Proof.
  induction gs as [|g r IH]; simpl; [constructor|].
  destruct (spec_permits a g) eqn:E; constructor; assumption.
Qed.

Lemma first_refused_spec a gs :
  match first_refused a gs with
  | None => take_permitted a gs = gs /\ Forall (fun g => spec_permits a g = true) gs
  | Some g => spec_permits a g = false /\ exists rest, gs = take_permitted a gs ++ g :: rest
  end.
Proof.
  induction gs as [|g r IH]; simpl; [split; [reflexivity|constructor]|].
  destruct (spec_permits a g) eqn:E.
  - destruct (first_refused a r) as [b|].
    + destruct IH as [Hb [rest Hr]]. split; [exact Hb|]. exists rest. simpl. congruence.
    + destruct IH as [H1 H2]. split; [congruence|constructor; assumption].
  - split; [exact E|]. exists r. reflexivity.
Qed.

Lemma first_refused_refused a gs g : first_refused a gs = Some g -> spec_permits a g = false.
Proof. intros H. pose proof (first_refused_spec a gs) as S. rewrite H in S. apply S. Qed.

Lemma first_refused_not_taken a gs g : first_refused a gs = Some g -> ~ In g (take_permitted a gs).
Proof.
  intros H Hin. pose proof (take_permitted_all a gs) as F. rewrite Forall_forall in F.
  specialize (F g Hin). rewrite (first_refused_refused a gs g H) in F. discriminate.
Qed.

Definition seq2 (x y : res) : res :=
  match snd x with Done => (fst x ++ fst y, snd y) | _ => x end.

Lemma seq_res_cons x r : seq_res (x :: r) = seq2 x (seq_res r).
Proof. destruct x as [l []]; cbn; [destruct (seq_res r)|..]; reflexivity. Qed.

Lemma restrict_seq2 a x y : restrict a (seq2 x y) = seq2 (restrict a x) (restrict a y).
Proof.
  destruct x as [l o], y as [l' o']. unfold restrict, seq2. cbn [fst snd].
  destruct o; cbn [fst snd].
  - rewrite first_refused_app, take_permitted_app.
    destruct (first_refused a l); [reflexivity|]. cbn [fst snd].
    destruct (first_refused a l'); reflexivity.
  - destruct (first_refused a l); reflexivity.
  - destruct (first_refused a l); reflexivity.
Qed.

Lemma restrict_seq_res a rs :
  restrict a (seq_res rs) = seq_res (map (restrict a) rs).
Proof.
  induction rs as [|x r IH]; [reflexivity|].
  cbn [map]. rewrite !seq_res_cons, restrict_seq2, IH. reflexivity.
Qed.

Lemma resolve_mediated a k g :
  mediated k = true -> resolve (pass_ml a) k g = restrict a (resolve pass_all k g).
Proof.
  intros Hk. unfold resolve, pass_ml, pass_all, restrict. rewrite Hk. simpl.
  destruct (spec_permits a g); reflexivity.
Qed.

(* [cbn] would leave the mutual fixpoint unfolded *)
Lemma run_node_eq pass k evs : run_node pass (Node k evs) = seq_res (map (run_ev pass k) evs).
Proof. reflexivity. Qed.

Lemma run_ev_call pass k c ct ok ch :
  run_ev pass k (ECall c ct ok ch) =
  seq_res [resolve pass k c; seq_res (map (run_node pass) ch); ([], if ok then Done else OtherError)].
Proof. reflexivity. Qed.

Lemma mediated_tree_eq a : forall n,
  all_mediated n = true -> run_ml a n = restrict a (run_stock n).
Proof.
  unfold run_ml, run_stock.
  apply (node_ind2
    (fun n => all_mediated n = true -> run_node (pass_ml a) n = restrict a (run_node pass_all n))
    (fun e => ev_mediated e = true -> forall k, mediated k = true ->
                run_ev (pass_ml a) k e = restrict a (run_ev pass_all k e))).
  - intros k evs IH Hm. cbn [all_mediated] in Hm. apply andb_true_iff in Hm. destruct Hm as [Hk He].
    rewrite !run_node_eq, restrict_seq_res, map_map. f_equal.
    apply map_ext_Forall. apply (Forall_forallb_imp _ _ _ He) in IH.
    eapply Forall_impl; [|exact IH]. intros e H. exact (H k Hk).
  - intros g _ k Hk. apply resolve_mediated. exact Hk.
  - intros c ct ok ch IH Hm k Hk. cbn [ev_mediated] in Hm. rewrite !run_ev_call.
    rewrite restrict_seq_res. cbn [map]. rewrite restrict_seq_res, map_map.
    rewrite (resolve_mediated a k c Hk).
    rewrite (map_ext_Forall _ _ (Forall_forallb_imp _ _ _ Hm IH)). reflexivity.
Qed.

Lemma lookup_path_in c ct t v :
  lookup_path c ct t = Some v -> In ((c, ct), v) t.
Proof.
  induction t as [|[[c' ct'] v'] r IH]; simpl; [discriminate|].
  destruct (gname_eqb c c' && String.eqb ct ct') eqn:E.
  - intros H. inversion H; subst. apply andb_true_iff in E. destruct E as [E1 E2].
    apply gname_eqb_eq in E1. apply String.eqb_eq in E2. subst. left. reflexivity.
  - intros H. right. apply IH. exact H.
Qed.

Lemma list_str_eqb_eq a : forall b, list_str_eqb a b = true -> a = b.
Proof.
  induction a as [|x r IH]; intros [|y s]; simpl; try discriminate; [reflexivity|].
  intros H. apply andb_true_iff in H. destruct H as [H1 H2]. apply String.eqb_eq in H1.
  rewrite (IH s H2). congruence.
Qed.

Lemma conforming_tree_mediated :
  (forall row, In row loader_paths -> pair_mediated row = true) ->
  forall n, conforms n = true -> mediated (kind_of n) = true -> all_mediated n = true.
Proof.
  intros Ht.
  apply (node_ind2
    (fun n => conforms n = true -> mediated (kind_of n) = true -> all_mediated n = true)
    (fun e => ev_conforms e = true -> ev_mediated e = true)).
  - intros k evs IH Hc Hk. cbn [kind_of] in Hk. cbn [conforms] in Hc.
    cbn [all_mediated]. rewrite Hk. simpl.
    apply forallb_forall, Forall_forall, (Forall_forallb_imp _ _ _ Hc IH).
  - reflexivity.
  - intros c ct ok ch IH Hc. cbn [ev_conforms] in Hc. cbn [ev_mediated].
    unfold path in Hc. destruct (lookup_path c (container_name ct) loader_paths) as [[kinds ok']|] eqn:El;
      [|discriminate].
    apply andb_true_iff in Hc. destruct Hc as [Hc Hch]. apply andb_true_iff in Hc. destruct Hc as [Hk _].
    apply list_str_eqb_eq in Hk. apply lookup_path_in, Ht in El.
    unfold pair_mediated in El. cbn [fst snd] in El. rewrite Hk, forallb_forall in El.
    apply (Forall_forallb_imp _ _ _ Hch) in IH. rewrite Forall_forall in IH.
    apply forallb_forall. intros n Hin. apply IH; [exact Hin|]. apply El, in_map, Hin.
Qed.

Lemma paths_mediated_all : forall row, In row loader_paths -> pair_mediated row = true.
Proof. apply forallb_forall. vm_compute. reflexivity. Qed.

Definition entry_points : list string := ["pickle.load"; "pickle.loads"; "_pickle.load"; "_pickle.loads"]%string.

Lemma entry_points_mediated : forallb mediated entry_points = true.
Proof. vm_compute. reflexivity. Qed.

Lemma safe_conforming a n :
  In (kind_of n) entry_points -> conforms n = true -> run_ml a n = restrict a (run_stock n).
Proof.
  intros He Hc. apply mediated_tree_eq, (conforming_tree_mediated paths_mediated_all n Hc).
  pose proof entry_points_mediated as H. rewrite forallb_forall in H. apply H. exact He.
Qed.

(* [uses d11 n = false] is unused: the two [d11] rows go through pickle.Unpickler, which the repaired
   library (D11) replaces as well.  Before the repair it was the whole guarantee. *)
Lemma safe_without_d11 a n :
  In (kind_of n) entry_points -> conforms n = true -> uses d11 n = false ->
  run_ml a n = restrict a (run_stock n).
Proof. intros He Hc _. exact (safe_conforming a n He Hc). Qed.
