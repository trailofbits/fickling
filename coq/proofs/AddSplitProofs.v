(* The split of an addition string is exact, so an addition permits one pair and never the pair obtained by
   cutting the same text at another dot. *)
From Coq Require Import List String Bool.
From Verif Require Import Allowlist AllowlistProofs AddSplit.
Import ListNotations.
Local Open Scope string_scope.

Lemma rsplit_none_nodot : forall s, rsplit_dot s = None <-> nodot s = true.
Proof.
  induction s as [|c r IH]; cbn [rsplit_dot nodot]; [tauto|].
  destruct (rsplit_dot r) as [[m n]|] eqn:E.
  - split; [discriminate|]. intros H. apply andb_true_iff in H. destruct H as [_ H].
    apply IH in H. discriminate.
  - destruct (is_dot c) eqn:D; cbn [negb andb].
    + split; discriminate.
    + split; intros _; [apply IH; reflexivity | reflexivity].
Qed.

Lemma rsplit_sound : forall s m n,
  rsplit_dot s = Some (m, n) -> s = m ++ "." ++ n /\ nodot n = true.
Proof.
  induction s as [|c r IH]; cbn [rsplit_dot]; intros m n H; [discriminate|].
  destruct (rsplit_dot r) as [[m' n']|] eqn:E.
  - injection H as <- <-. destruct (IH m' n' eq_refl) as [-> Hn]. split; [reflexivity | exact Hn].
  - destruct (is_dot c) eqn:D; [|discriminate]. injection H as <- <-.
    unfold is_dot in D. apply Ascii.eqb_eq in D. subst c. split; [reflexivity|].
    apply rsplit_none_nodot. exact E.
Qed.

Lemma rsplit_complete : forall m n, nodot n = true -> rsplit_dot (m ++ "." ++ n) = Some (m, n).
Proof.
  induction m as [|c r IH]; intros n Hn.
  - cbn [append rsplit_dot]. apply rsplit_none_nodot in Hn. rewrite Hn. reflexivity.
  - change (rsplit_dot (String c (r ++ "." ++ n)) = Some (String c r, n)).
    cbn [rsplit_dot]. rewrite (IH n Hn). reflexivity.
Qed.

Theorem rsplit_exact : forall s m n,
  rsplit_dot s = Some (m, n) <-> (s = m ++ "." ++ n /\ nodot n = true).
Proof.
  intros s m n. split; [apply rsplit_sound|]. intros [-> H]. apply rsplit_complete. exact H.
Qed.

Lemma split_unique : forall s m n m' n',
  rsplit_dot s = Some (m, n) -> s = m' ++ "." ++ n' -> nodot n' = true -> (m', n') = (m, n).
Proof.
  intros s m n m' n' H -> Hn. rewrite (rsplit_complete m' n' Hn) in H. injection H as <- <-. reflexivity.
Qed.

Lemma parse_adds_In : forall l a, parse_adds l = Some a ->
  forall g, In g a <-> exists s, In s l /\ rsplit_dot s = Some g.
Proof.
  induction l as [|s r IH]; cbn [parse_adds]; intros a H g.
  - injection H as <-. split; [intros [] | intros (s & [] & _)].
  - destruct (rsplit_dot s) as [g0|] eqn:E; [|discriminate].
    destruct (parse_adds r) as [t|] eqn:Er; [|discriminate]. injection H as <-.
    cbn [In]. rewrite (IH t eq_refl g). split.
    + intros [<-|(s' & Hin & Hs)]; [exists s; auto | exists s'; auto].
    + intros (s' & [<-|Hin] & Hs); [left; congruence | right; exists s'; auto].
Qed.

Theorem additions_exact : forall adds a m n,
  parse_adds adds = Some a ->
  (mem_g (m, n) a = true <-> (In (m ++ "." ++ n) adds /\ nodot n = true)).
Proof.
  intros adds a m n H. rewrite mem_g_In, (parse_adds_In adds a H). split.
  - intros (s & Hin & Hs). apply rsplit_sound in Hs. destruct Hs as [-> Hn]. auto.
  - intros [Hin Hn]. exists (m ++ "." ++ n). split; [exact Hin | apply rsplit_complete; exact Hn].
Qed.

Theorem permits_strings_exact : forall adds m n,
  (forall s, In s adds -> nodot s = false) ->
  exists b, permits_strings adds (m, n) = Some b /\
            (b = true <-> (in_base (m, n) = true \/ (In (m ++ "." ++ n) adds /\ nodot n = true))).
Proof.
  intros adds m n Hall.
  assert (exists a, parse_adds adds = Some a) as [a Ha].
  { induction adds as [|s r IH]; cbn [parse_adds]; [eauto|].
    destruct (rsplit_dot s) as [g|] eqn:E.
    - destruct IH as [t ->]; [intros x Hx; apply Hall; right; exact Hx | eauto].
    - apply rsplit_none_nodot in E. rewrite (Hall s (or_introl eq_refl)) in E. discriminate. }
  unfold permits_strings. rewrite Ha. eexists. split; [reflexivity|].
  unfold spec_permits. rewrite orb_true_iff, (additions_exact adds a m n Ha). tauto.
Qed.

Theorem no_dot_raises : forall adds s g,
  In s adds -> nodot s = true -> permits_strings adds g = None.
Proof.
  intros adds s g Hin Hn. unfold permits_strings.
  assert (parse_adds adds = None) as ->; [|reflexivity].
  induction adds as [|x r IH]; [destruct Hin|]. cbn [parse_adds]. destruct Hin as [->|Hin].
  - apply rsplit_none_nodot in Hn. rewrite Hn. reflexivity.
  - rewrite (IH Hin). destruct (rsplit_dot x); reflexivity.
Qed.
