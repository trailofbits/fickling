(* C08: the counterpart of InjectProofs.vrun_lift for fickling's symbolic interpreter.  While the
   reference VM accepts a program from a state of the same shape, the interpreter neither reads nor
   changes extra items at the bottom of its stack (step_app_bot, run_unlift).  So the run-last REDUCE,
   which comes after the whole base, still finds its callee (run_last_call_decompiled). *)
From Coq Require Import List String Bool Arith Lia.
From Verif Require Import Base BaseProofs Ops Interp RefVM Shape ShapeProofs Inject InjectProofs InjectSevProofs.
Import ListNotations.
Local Open Scope nat_scope.
Local Open Scope list_scope.

Definition app_bot (bot : list item) (s : fk) : fk :=
  mkFk (stack s ++ bot) (memo s) (nodes s) (body s) (ctr s) (stopped s).

Lemma split_mark_bot bot st : forall acc n m t,
  frames_of st = n :: m :: t ->
  split_mark (st ++ bot) acc = rmap (fun p => (fst p, snd p ++ bot)) (split_mark st acc) /\
  exists items r, split_mark st acc = Ok (items, r) /\ frames_of r = m :: t.
Proof.
  induction st as [|[|e] r IH]; intros acc n m t F; cbn [frames_of] in F.
  - discriminate.
  - injection F as <- F. cbn. split; [reflexivity|]. eauto.
  - destruct (frames_of_cons r) as (h' & t' & F'). rewrite F' in F. injection F as <- ->.
    cbn [app split_mark]. exact (IH (e :: acc) _ _ _ F').
Qed.

Lemma eat_need k j n fs : eat k j (n :: fs) <> None -> k <= n.
Proof. unfold eat. destruct (k <=? n) eqn:E; [intros _; apply Nat.leb_le; exact E|congruence]. Qed.

Lemma close_need a b j n fs : close a b j (n :: fs) <> None -> exists m t, fs = m :: t /\ b <= m.
Proof.
  unfold close. destruct fs as [|m t]; [congruence|]. destruct (b <=? m) eqn:E.
  - intros _. exists m, t. split; [reflexivity|apply Nat.leb_le; exact E].
  - rewrite andb_false_r. congruence.
Qed.

Lemma fold_emit_app_bot bot name kvs : forall st mm ns bd c sp,
  fold_left (fun s kv => emit (SSetItemV name (fst kv) (snd kv)) s) kvs (mkFk (st ++ bot) mm ns bd c sp) =
  app_bot bot (fold_left (fun s kv => emit (SSetItemV name (fst kv) (snd kv)) s) kvs (mkFk st mm ns bd c sp)).
Proof. induction kvs as [|kv r IH]; intros st mm ns bd c sp; [reflexivity|]. exact (IH _ _ _ _ _ _). Qed.

(* for a goal in which the entries the opcode reads are explicit; emit stays folded, for SETITEMS'
   one statement per pair (fold_emit_app_bot) *)
Ltac compute_step :=
  unfold step, pop_val, top_val, pop_slice, push, with_stack, alloc, set_node, get_node, emit_import,
    new_variable, call_with, bind;
  cbn [stack memo nodes body ctr stopped app map fst snd rmap];
  repeat match goal with |- context[match ?x with _ => _ end] => destruct x end;
  cbn [rmap]; rewrite ?fold_emit_app_bot; reflexivity.

Ltac eat_case H F :=
  match type of H with
  | eat ?k _ (?n :: ?fs) <> None =>
      let items := fresh "items" in let L := fresh "L" in
      destruct (top_values _ k n fs F (eat_need _ _ _ _ H)) as (items & ? & -> & L);
      repeat (destruct items as [|? items]; [discriminate L|]; cbn [List.length] in L; apply eq_add_S in L);
      destruct items; [|discriminate L];
      compute_step
  end.

Ltac close_case bot st H F :=
  let m := fresh "m" in let t := fresh "t" in let B := fresh "B" in
  let items := fresh "items" in let r := fresh "r" in let E := fresh "E" in let SM := fresh "SM" in let F2 := fresh "F2" in
  destruct (close_need _ _ _ _ _ H) as (m & t & -> & B);
  destruct (split_mark_bot bot st [] _ _ _ F) as (E & items & r & SM & F2);
  unfold step, pop_slice, bind; cbn [stack]; rewrite E, SM; cbn [rmap fst snd];
  try (destruct m as [|m]; [lia|]; apply frames_S in F2; destruct F2 as (? & ? & -> & F2)).

Lemma step_app_bot bot o s :
  sh_frames o (frames_of (stack s)) <> None ->
  step o (app_bot bot s) = rmap (app_bot bot) (step o s).
Proof.
  destruct s as [st mm ns bd ct sp]. unfold app_bot. cbn [stack memo nodes body ctr stopped].
  intros H. destruct (frames_of st) as [|n fs] eqn:F;
    [destruct (frames_of_cons st) as (? & ? & F'); congruence|].
  destruct o; cbn [sh_frames] in H.
  (* by kind of shape effect: eat reads the top k values, close takes the slice above the nearest
     mark; MARK, NOOP and NORUN look at nothing *)
  all: try (eat_case H F).
  all: try (close_case bot st H F; compute_step).
  all: try reflexivity.
  (* left: POP (a value, or an empty frame's mark) and DICT (evenly many items above the mark) *)
  - destruct n as [|n].
    + destruct fs as [|m t]; [congruence|]. apply frames_0 in F. destruct F as (? & -> & _). reflexivity.
    + apply frames_S in F. destruct F as (? & ? & -> & _). reflexivity.
  - destruct (Nat.even n); [|congruence]. close_case bot st H F. compute_step.
Qed.

Lemma vm_accepts_frames o s v v' :
  shape_fk s = shape_vm v -> vstep o v = Ok v' -> sh_frames o (frames_of (stack s)) <> None.
Proof.
  intros SH V. apply vm_follows_shape in V. rewrite <- SH in V. unfold sh_step in V. cbn [shape_fk fr] in V.
  destruct (sh_frames o _); [discriminate|discriminate V].
Qed.

Lemma run_app_bot bot : forall q s v v',
  shape_fk s = shape_vm v -> vrun_from q v = Ok v' ->
  run_from q (app_bot bot s) = rmap (app_bot bot) (run_from q s).
Proof.
  induction q as [|o r IH]; intros s v v' SH Hv; cbn [run_from vrun_from] in *; [reflexivity|].
  change (stopped (app_bot bot s)) with (stopped s). rewrite <- (f_equal halted SH : stopped s = is_stopped v) in Hv.
  destruct (stopped s); [reflexivity|].
  destruct (vstep o v) as [v1|] eqn:V1; [|discriminate Hv]. cbn [bind] in Hv.
  rewrite (step_app_bot bot o s (vm_accepts_frames _ _ _ _ SH V1)).
  destruct (step o s) as [s1|] eqn:S1; cbn [rmap bind]; [|reflexivity].
  exact (IH s1 v1 v' (step_agree o s v s1 v1 SH S1 V1) Hv).
Qed.

Lemma run_unlift bot q s v v' t :
  shape_fk s = shape_vm v -> vrun_from q v = Ok v' -> run_from q (app_bot bot s) = Ok t ->
  exists s', run_from q s = Ok s' /\ t = app_bot bot s' /\ shape_fk s' = shape_vm v'.
Proof.
  intros SH Hv Ht. rewrite (run_app_bot bot q s v v' SH Hv) in Ht.
  destruct (run_from q s) as [s'|] eqn:Hs; [|discriminate Ht]. injection Ht as <-.
  exists s'. split; [reflexivity|]. split; [reflexivity|]. exact (run_shape_agree q s v s' v' SH Hs Hv).
Qed.

Theorem run_last_call_decompiled m n args rep p r sq p' fv s :
  plain2 m n = true -> base_run p = Some (r, sq) ->
  inject (MInsert m n args false rep) p = Ok p' ->
  run_from p' (fk_init fv) = Ok s ->
  exists i es, In (SAssignV i (ECall (EName n) es None)) (body s).
Proof.
  intros P HB HI HR. apply base_run_inv in HB. destruct HB as (q0 & vmm & h & lg & k & -> & -> & R).
  rewrite (inject_normal_form _ _ _ _ HI eq_refl) in HR. cbn [fst snd] in HR.
  unfold normal_form at 1, fk_init in HR. rewrite run_noops in HR.
  destruct (fk_setup_block m n args [] [] [] [] fv P) as (es & ns1 & E).
  rewrite E, run_app in HR. rewrite <- vrun_skip_noops in R.
  set (bot := [IE (ETuple es); IE (EName n)]) in *.
  set (small := mkFk [] [] ns1 (import_stmts m n ++ []) fv false).
  change (mkFk bot [] ns1 (import_stmts m n ++ []) fv false) with (app_bot bot small) in HR.
  destruct (run_from _ (app_bot bot small)) as [t|] eqn:RT; cbn [bind] in HR; [|discriminate HR].
  destruct (run_unlift bot _ small vm_init _ t eq_refl R RT) as ([st mm ns bd ct sp] & _ & -> & SH).
  (* the base leaves one value and no mark above the set-up's two items *)
  destruct (one_value_stack st (f_equal fr SH)) as (x & ->).
  pose proof (f_equal halted SH) as ST. cbn in ST. subst sp.
  unfold app_bot, bot in HR. cbn [stack memo nodes body ctr stopped app] in HR.
  destruct rep; cbn [app] in HR;
    [|rewrite run_cons in HR; cbn [step top_val stack bind memo nodes body ctr stopped] in HR];
    rewrite fk_pop, fk_reduce in HR; exists ct, es; exact (run_body_In _ _ _ _ HR (or_introl eq_refl)).
Qed.

Definition injected_callee (md : mode) : option (string * string) :=
  match md with
  | MInsert m n _ _ _ => Some (m, n)
  | MAppend m n _ _ => Some (m, n)
  | MCallObj _ _ _ _ => Some ("builtins", "eval")%string
  | MMagic _ _ => None
  end.

Lemma run_behind_base q sq rest fv s :
  vrun_from q vm_init = Ok sq -> run_from (q ++ rest) (fk_init fv) = Ok s ->
  exists sA, stopped sA = is_stopped sq /\ run_from rest sA = Ok s.
Proof.
  intros R H. rewrite run_app in H. destruct (run_from q (fk_init fv)) as [sA|] eqn:RA; [|discriminate H].
  exists sA. split; [exact (f_equal halted (run_shape_agree q (fk_init fv) vm_init sA sq eq_refl RA R))|exact H].
Qed.

Theorem injected_call_decompiled_all md m n p r sq p' fv s :
  injected_callee md = Some (m, n) -> plain2 m n = true -> base_run p = Some (r, sq) ->
  inject md p = Ok p' -> run_from p' (fk_init fv) = Ok s ->
  exists i es, In (SAssignV i (ECall (EName n) es None)) (body s).
Proof.
  intros HC P HB HI HR.
  (* but for run-last, set-up and REDUCE stand together: behind the leading no-ops (run-first) or
     behind the base (append_python, call-on-object) *)
  destruct md as [m0 n0 args [|] rep|m0 n0 cs pop|magic index|fdef fname bc cargs]; try discriminate HC;
    injection HC as <- <-.
  2: exact (run_last_call_decompiled m0 n0 args rep p r sq p' fv s P HB HI HR).
  all: apply base_run_inv in HB; destruct HB as (q0 & mm & h & lg & k & -> & -> & R);
    rewrite (inject_normal_form _ _ _ _ HI eq_refl) in HR; cbn [fst snd] in HR.
  - unfold normal_form in HR. rewrite <- !app_assoc in HR.
    exact (block_recorded _ m0 n0 args _ (fk_init fv) s (stop_free_repeat _) eq_refl P HR).
  - rewrite normal_form_nil in HR. destruct (run_behind_base _ _ _ _ _ R HR) as (sA & NS & HA).
    rewrite append_ops_block, <- app_assoc in HA.
    exact (block_recorded [] m0 n0 (map AConst cs) _ sA s eq_refl NS P HA).
  - rewrite normal_form_nil in HR. destruct (run_behind_base _ _ _ _ _ R HR) as (sA & NS & HA).
    unfold call_on_object_ops in HA. rewrite (append_ops_block "builtins" "eval"), <- !app_assoc in HA.
    refine (block_recorded _ _ _ _ _ sA s _ NS P HA).
    destruct bc; [rewrite stop_free_app|]; rewrite stop_free_append_ops; reflexivity.
Qed.
