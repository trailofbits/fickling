(* One successful step of each machine (Interp.step, RefVM.vstep) as a relation with the successor
   state written out; facts about single opcodes are case analyses over [step_spec] / [vstep_spec].
   Then the stepping loop both machines share, with its induction principles. *)
From Coq Require Import List String ZArith Bool Lia.
From Verif Require Import Base BaseProofs Ops Interp RefVM.
Import ListNotations.
Local Open Scope nat_scope.
Local Open Scope list_scope.

Lemma set_nth_length : forall {A} i (x : A) l, List.length (set_nth i x l) = List.length l.
Proof. intros A i x l. revert i. induction l as [|y l IH]; intros [|i]; cbn; auto. Qed.

Lemma set_nth_split : forall {A} i (x : A) l, i < List.length l ->
  set_nth i x l = firstn i l ++ x :: skipn (S i) l.
Proof.
  intros A i x l. revert i. induction l as [|y l IH]; intros [|i] L; cbn in *; try lia; [reflexivity|].
  rewrite IH by lia. reflexivity.
Qed.

Lemma nth_error_set_nth : forall {A} i (x : A) l j, i < List.length l ->
  nth_error (set_nth i x l) j = if Nat.eqb j i then Some x else nth_error l j.
Proof.
  intros A i x l. revert i. induction l as [|y l IH]; intros [|i] [|j] L; cbn in *; try lia; auto.
  apply IH. lia.
Qed.

Lemma map_set_nth : forall {A B} (f : A -> B) i x l, map f (set_nth i x l) = set_nth i (f x) (map f l).
Proof.
  intros A B f i x l. revert i. induction l as [|y l IH]; intros [|i]; cbn; try reflexivity.
  rewrite IH. reflexivity.
Qed.

Lemma set_nth_app {A} (l1 l2 : list A) i x :
  set_nth (List.length l1 + i) x (l1 ++ l2) = l1 ++ set_nth i x l2.
Proof. induction l1 as [|y r IH]; [reflexivity|]. cbn. rewrite IH. reflexivity. Qed.

Lemma Forall_set_nth : forall {A} (Q : A -> Prop) i x l, Forall Q l -> Q x -> Forall Q (set_nth i x l).
Proof.
  intros A Q i x l F. revert i. induction F as [|y l Hy F IH]; intros [|i] Hx; cbn; constructor; auto.
Qed.

Lemma Forall2_set_nth {A B} (P : A -> B -> Prop) l l' :
  Forall2 P l l' -> forall i a b, P a b -> Forall2 P (set_nth i a l) (set_nth i b l').
Proof. induction 1 as [|x y l l' H Ht IH]; intros [|i] a b Hab; cbn; constructor; auto. Qed.

Lemma forallb_set_nth {A} (f : A -> bool) x : forall l i,
  forallb f l = true -> f x = true -> forallb f (set_nth i x l) = true.
Proof.
  intros l i H X. apply forallb_forall. apply Forall_forall.
  apply Forall_set_nth; [apply Forall_forall, forallb_forall; exact H | exact X].
Qed.

Lemma memo_remove_forall {A} (Q : A -> Prop) k m :
  Forall (fun kv => Q (snd kv)) m -> Forall (fun kv => Q (snd kv)) (memo_remove k m).
Proof.
  induction 1 as [|[k' v] m H F IH]; cbn; [constructor|].
  destruct (Z.eqb k k'); [exact IH | constructor; assumption].
Qed.

Lemma memo_put_forall {A} (Q : A -> Prop) k v m :
  Q v -> Forall (fun kv => Q (snd kv)) m -> Forall (fun kv => Q (snd kv)) (memo_put k v m).
Proof. intros Hv F. constructor; [exact Hv | apply memo_remove_forall; exact F]. Qed.

Lemma memo_get_forall {A} (Q : A -> Prop) k m e :
  memo_get k m = Some e -> Forall (fun kv => Q (snd kv)) m -> Q e.
Proof.
  intros G F. induction F as [|[k' v] m Hv F IH]; cbn in G; [discriminate|].
  destruct (Z.eqb k k'); [injection G as <-; exact Hv | exact (IH G)].
Qed.

Lemma memo_put_forallb {A} (q : A -> bool) k v m :
  q v = true -> forallb (fun kv => q (snd kv)) m = true ->
  forallb (fun kv => q (snd kv)) (memo_put k v m) = true.
Proof. rewrite !forallb_forall, <- !Forall_forall. apply (memo_put_forall (fun x => q x = true)). Qed.

Lemma memo_get_forallb {A} (q : A -> bool) k m e :
  memo_get k m = Some e -> forallb (fun kv => q (snd kv)) m = true -> q e = true.
Proof. rewrite forallb_forall, <- Forall_forall. apply (memo_get_forall (fun x => q x = true)). Qed.

Lemma pop_val_eq s e s1 :
  pop_val s = Ok (e, s1) -> exists r, stack s = IE e :: r /\ s1 = with_stack s r.
Proof.
  unfold pop_val. destruct (stack s) as [|[|x] r]; try discriminate.
  intros H; inversion H; subst. eauto.
Qed.

Lemma top_val_eq s e : top_val s = Ok e -> exists r, stack s = IE e :: r.
Proof.
  unfold top_val. destruct (stack s) as [|[|x] r]; try discriminate.
  intros H; inversion H; subst; eauto.
Qed.

Lemma split_mark_eq st : forall acc items r,
  split_mark st acc = Ok (items, r) ->
  exists top, st = map IE top ++ IMark :: r /\ items = rev top ++ acc.
Proof.
  induction st as [|[|e] st IH]; intros acc items r H; cbn in H; try discriminate.
  - inversion H; subst. exists []. auto.
  - apply IH in H. destruct H as (top & -> & ->). exists (e :: top). cbn.
    rewrite <- app_assoc. auto.
Qed.

Lemma pop_slice_eq s items s1 :
  pop_slice s = Ok (items, s1) ->
  exists top r, stack s = map IE top ++ IMark :: r /\ items = rev top /\ s1 = with_stack s r.
Proof.
  unfold pop_slice. intros H. apply bind_ok in H. destruct H as ([it r] & H1 & H2).
  inversion H2; subst. apply split_mark_eq in H1. destruct H1 as (top & A & B).
  rewrite app_nil_r in B. eauto.
Qed.

Lemma vpop_eq v x v1 :
  vpop v = Ok (x, v1) -> exists c, cur v = x :: c /\ v1 = with_frames v c (meta v).
Proof.
  unfold vpop. destruct (cur v); try discriminate.
  intros H; inversion H; subst. eauto.
Qed.

Lemma vtop_eq v x : vtop v = Ok x -> exists c, cur v = x :: c.
Proof. unfold vtop. destruct (cur v); try discriminate. intros H; inversion H; subst; eauto. Qed.

Lemma vpop_mark_eq v items v1 :
  vpop_mark v = Ok (items, v1) ->
  exists p m, meta v = p :: m /\ items = rev (cur v) /\ v1 = with_frames v p m.
Proof.
  unfold vpop_mark. destruct (meta v); try discriminate.
  intros H; inversion H; subst. eauto.
Qed.

(* the VM after a call: a fresh stand-in is pushed, the call logged with its number *)
Definition called (f : val) (args : list val) (kw : option val) (s : vm) : vm :=
  vpush' (VObj (nobj s)) (vlog (EvCall f args kw (nobj s)) (snd (fresh_obj s))).

Lemma do_call_eq f args kw s s1 :
  do_call f args kw s = Ok s1 -> callable f = true /\ s1 = called f args kw s.
Proof.
  unfold do_call. destruct (callable f); [|discriminate].
  intros H; inversion H; subst. auto.
Qed.

Lemma find_class_eq m n s s1 :
  find_class m n s = Ok s1 ->
  plain m && plain n = true /\ s1 = vpush' (VGlobal m n) (vlog (EvResolve m n) s).
Proof.
  unfold find_class. destruct (plain m && plain n); [|discriminate].
  intros H; inversion H; subst. auto.
Qed.

Lemma fold_emit_eq name (kvs : list (expr * expr)) : forall s,
  fold_left (fun st kv => emit (SSetItemV name (fst kv) (snd kv)) st) kvs s =
  mkFk (stack s) (memo s) (nodes s)
       (rev (map (fun kv => SSetItemV name (fst kv) (snd kv)) kvs) ++ body s) (ctr s) (stopped s).
Proof.
  induction kvs as [|kv r IH]; intros s; cbn.
  - destruct s; reflexivity.
  - rewrite IH. cbn. rewrite <- app_assoc. reflexivity.
Qed.

Lemma fold_vlog_eq d kvs : forall s,
  fold_left (fun st kv => vlog (EvSetItem d (fst kv) (snd kv)) st) kvs s =
  mkVm (cur s) (meta s) (vmemo s) (heap s)
       (rev (map (fun kv => EvSetItem d (fst kv) (snd kv)) kvs) ++ log s) (nobj s) (vstopped s).
Proof.
  induction kvs as [|kv r IH]; intros s; cbn.
  - destruct s; reflexivity.
  - rewrite IH. cbn. rewrite <- app_assoc. reflexivity.
Qed.

(* what [emit_import] adds to the body: fickling writes no import statement for a builtin *)
Definition import_stmts (m n : string) : list stmt := if is_builtins m then [] else [SImport m n].

Lemma emit_import_state m n s :
  emit_import m n s =
  mkFk (stack s) (memo s) (nodes s) (import_stmts m n ++ body s) (ctr s) (stopped s).
Proof. unfold emit_import, import_stmts. destruct (is_builtins m), s; reflexivity. Qed.

Lemma vpairs_of_flat : forall kvs l,
  vpairs_of l = Ok kvs -> l = flat_map (fun kv => [fst kv; snd kv]) kvs.
Proof.
  induction kvs as [|kv kvs IH]; intros [|a [|b l]] H; cbn [vpairs_of] in H; try discriminate;
    try (apply bind_ok in H; destruct H as (t & H & Q); inversion Q; subst).
  - reflexivity.
  - cbn. f_equal. f_equal. apply IH. exact H.
Qed.

(* projections of an explicitly written state *)
Ltac simp_proj :=
  cbn [stack memo nodes body ctr stopped cur meta vmemo heap log nobj vstopped
       with_stack with_frames push vpush' emit vlog set_node vset_obj fst snd] in *.

(* takes a successful computation apart ([bind], pair patterns, [Ok _ = Ok _]) until each primitive
   that ran has a hypothesis of its own *)
Ltac fk_inv :=
  repeat match goal with
  | H : bind _ _ = Ok _ |- _ => apply bind_ok in H; destruct H as (? & ? & H)
  | H : (let '(_, _) := ?x in _) = Ok _ |- _ => destruct x eqn:?
  | H : Ok _ = Ok _ |- _ => inversion H; subst; clear H
  | H : Err _ = Ok _ |- _ => discriminate H
  | p : (_ * _)%type |- _ => destruct p
  end.

(* replaces each successful primitive by its state equation *)
Ltac eqs :=
  repeat match goal with
  | H : pop_val _ = Ok (_, _) |- _ => apply pop_val_eq in H; destruct H as (? & ? & ?)
  | H : pop_slice _ = Ok (_, _) |- _ => apply pop_slice_eq in H; destruct H as (? & ? & ? & ? & ?)
  | H : top_val _ = Ok _ |- _ => apply top_val_eq in H; destruct H as (? & ?)
  | H : vpop _ = Ok (_, _) |- _ => apply vpop_eq in H; destruct H as (? & ? & ?)
  | H : vtop _ = Ok _ |- _ => apply vtop_eq in H; destruct H as (? & ?)
  | H : vpop_mark _ = Ok (_, _) |- _ => apply vpop_mark_eq in H; destruct H as (? & ? & ? & ? & ?)
  | H : do_call _ _ _ _ = Ok _ |- _ => apply do_call_eq in H; destruct H as (? & ?)
  | H : find_class _ _ _ = Ok _ |- _ => apply find_class_eq in H; destruct H as (? & ?)
  | H : vpush _ _ = Ok _ |- _ => unfold vpush in H; inversion H; subst; clear H
  end.

(* the allocators are total, their results read off their definitions: fickling's ... *)
Ltac inv_pairs :=
  repeat match goal with
  | H : alloc _ _ = (_, _) |- _ => unfold alloc in H; inversion H; subst; clear H
  | H : new_variable _ _ = (_, _) |- _ => unfold new_variable in H; inversion H; subst; clear H
  end.

(* ... and the VM's *)
Ltac vinv_pairs :=
  repeat match goal with
  | H : valloc _ _ = (_, _) |- _ => unfold valloc in H; inversion H; subst; clear H
  | H : fresh_obj _ = (_, _) |- _ => unfold fresh_obj in H; inversion H; subst; clear H
  end.

(* the branches of a successful step *)
Ltac crack :=
  repeat match goal with
  | H : match ?x with _ => _ end = Ok _ |- _ => destruct x eqn:?; try discriminate H
  | H : (if ?x then _ else _) = Ok _ |- _ => destruct x eqn:?; try discriminate H
  end.

(* SETITEM(S) updates a dict node in place, or else binds the target to a variable and emits item
   assignments.  [step] decides by two nested matches whose fall-through branches all take the second
   path; [dict_at] is that test with one answer per path, so [step_spec] has one constructor for each. *)
Definition dict_at (d : expr) (s : fk) : option (nat * list (expr * expr)) :=
  match d with
  | ENode i => match nth_error (nodes s) i with Some (NDict kvs) => Some (i, kvs) | _ => None end
  | _ => None
  end.

Lemma dict_at_Some d s i kvs :
  dict_at d s = Some (i, kvs) -> d = ENode i /\ nth_error (nodes s) i = Some (NDict kvs).
Proof.
  destruct d; cbn; try discriminate.
  destruct (nth_error _ _) as [[| |]|] eqn:E; try discriminate.
  intros H; inversion H; subst. auto.
Qed.

Lemma setitem_paths (d : expr) s (A : Type) (on_dict : nat -> list (expr * expr) -> A) (other : A) :
  match d with
  | ENode i => match get_node i s with
               | Some (NDict kvs) => on_dict i kvs
               | _ => other
               end
  | _ => other
  end = match dict_at d s with Some (i, kvs) => on_dict i kvs | None => other end.
Proof.
  destruct d; try reflexivity. unfold get_node. cbn.
  destruct (nth_error (nodes s) i) as [[| |]|]; reflexivity.
Qed.

Inductive step_spec : op -> fk -> fk -> Prop :=
| step_const c s : step_spec (OConst c) s (push (EConst c) s)
| step_mark s : step_spec OMark s (with_stack s (IMark :: stack s))
| step_stop e r s : stack s = IE e :: r ->
    step_spec OStop s (mkFk r (memo s) (nodes s) (SResult e :: body s) (ctr s) true)
| step_pop i r s : stack s = i :: r -> step_spec OPop s (with_stack s r)
| step_popmark top r s : stack s = map IE top ++ IMark :: r -> step_spec OPopMark s (with_stack s r)
| step_dup e r s : stack s = IE e :: r -> step_spec ODup s (push e s)
| step_emptylist s :
    step_spec OEmptyList s (push (ENode (List.length (nodes s))) (snd (alloc (NList []) s)))
| step_emptydict s :
    step_spec OEmptyDict s (push (ENode (List.length (nodes s))) (snd (alloc (NDict []) s)))
| step_emptyset s :
    step_spec OEmptySet s (push (ENode (List.length (nodes s))) (snd (alloc (NSet []) s)))
| step_emptytuple s : step_spec OEmptyTuple s (push (ETuple []) s)
| step_append v i r l s :
    stack s = IE v :: IE (ENode i) :: r -> nth_error (nodes s) i = Some (NList l) ->
    step_spec OAppend s (set_node i (NList (l ++ [v])) (with_stack s (IE (ENode i) :: r)))
| step_appends top i r l s :
    stack s = map IE top ++ IMark :: IE (ENode i) :: r -> nth_error (nodes s) i = Some (NList l) ->
    step_spec OAppends s (set_node i (NList (l ++ rev top)) (with_stack s (IE (ENode i) :: r)))
| step_list top r s : stack s = map IE top ++ IMark :: r ->
    step_spec OList s
      (push (ENode (List.length (nodes s))) (snd (alloc (NList (rev top)) (with_stack s r))))
| step_tuple top r s : stack s = map IE top ++ IMark :: r ->
    step_spec OTuple s (push (ETuple (rev top)) (with_stack s r))
| step_tuple1 a r s : stack s = IE a :: r ->
    step_spec OTuple1 s (push (ETuple [a]) (with_stack s r))
| step_tuple2 a b r s : stack s = IE b :: IE a :: r ->
    step_spec OTuple2 s (push (ETuple [a; b]) (with_stack s r))
| step_tuple3 a b c r s : stack s = IE c :: IE b :: IE a :: r ->
    step_spec OTuple3 s (push (ETuple [a; b; c]) (with_stack s r))
| step_dict top r s :
    stack s = map IE top ++ IMark :: r -> Nat.even (List.length (rev top)) = true ->
    step_spec ODict s
      (push (ENode (List.length (nodes s)))
            (snd (alloc (NDict (pairs_of (rev top))) (with_stack s r))))
| step_setitem_node v k d i kvs r s :
    stack s = IE v :: IE k :: IE d :: r -> dict_at d s = Some (i, kvs) ->
    step_spec OSetItem s (push d (set_node i (NDict (kvs ++ [(k, v)])) (with_stack s r)))
| step_setitem_var v k d r s :
    stack s = IE v :: IE k :: IE d :: r -> dict_at d s = None ->
    step_spec OSetItem s
      (push (EVar (ctr s)) (emit (SSetItemV (ctr s) k v) (snd (new_variable d (with_stack s r)))))
| step_setitems_node top d i kvs r s :
    stack s = map IE top ++ IMark :: IE d :: r -> dict_at d s = Some (i, kvs) ->
    step_spec OSetItems s
      (push d (set_node i (NDict (kvs ++ pairs_of (rev top))) (with_stack s r)))
| step_setitems_var top d r s :
    stack s = map IE top ++ IMark :: IE d :: r -> dict_at d s = None ->
    step_spec OSetItems s
      (mkFk (IE (EVar (ctr s)) :: r) (memo s) (nodes s)
            (rev (map (fun kv => SSetItemV (ctr s) (fst kv) (snd kv)) (pairs_of (rev top)))
               ++ SAssignV (ctr s) d :: body s)
            (S (ctr s)) (stopped s))
| step_additems top i r l s :
    stack s = map IE top ++ IMark :: IE (ENode i) :: r -> nth_error (nodes s) i = Some (NSet l) ->
    step_spec OAddItems s (set_node i (NSet (l ++ rev top)) (with_stack s (IE (ENode i) :: r)))
| step_frozenset top r s : stack s = map IE top ++ IMark :: r ->
    step_spec OFrozenSet s
      (push (ECall (EName "frozenset") [ESetLit (rev top)] None) (with_stack s r))
| step_global m n s : plain m && plain n = true ->
    step_spec (OGlobal m n) s (push (EName n) (emit_import m n s))
| step_stackglobal ms ns r s :
    stack s = IE (EConst (CStr ns)) :: IE (EConst (CStr ms)) :: r -> plain ms && plain ns = true ->
    step_spec OStackGlobal s (push (EName ns) (emit_import ms ns (with_stack s r)))
| step_inst m n top r s :
    stack s = map IE top ++ IMark :: r -> plain m && plain n = true ->
    step_spec (OInst m n) s
      (bind_call (ECall (EName n) (rev top) None) (emit_import m n (with_stack s r)))
| step_obj top k args r s :
    stack s = map IE top ++ IMark :: r -> rev top = k :: args ->
    step_spec OObj s (bind_call (ECall k args None) (with_stack s r))
| step_newobj args c r s : stack s = IE args :: IE c :: r ->
    step_spec ONewObj s (bind_call (call_with c args None) (with_stack s r))
| step_newobjex kw args c r s : stack s = IE kw :: IE args :: IE c :: r ->
    step_spec ONewObjEx s (bind_call (call_with c args (Some kw)) (with_stack s r))
| step_reduce args f r s : stack s = IE args :: IE f :: r ->
    step_spec OReduce s (bind_call (call_with f args None) (with_stack s r))
| step_build st obj r s : stack s = IE st :: IE obj :: r ->
    step_spec OBuild s
      (push (EVar (ctr s))
            (emit (SExpr (ECall (EAttr (EVar (ctr s)) "__setstate__") [st] None))
                  (snd (new_variable obj (with_stack s r)))))
| step_binpersid pid r s : stack s = IE pid :: r ->
    step_spec OBinPersId s
      (bind_call (ECall (EAttr (EName "UNPICKLER") "persistent_load") [pid] None) (with_stack s r))
| step_put k e r s : stack s = IE e :: r ->
    step_spec (OPut k) s
      (mkFk (stack s) (memo_put k e (memo s)) (nodes s) (body s) (ctr s) (stopped s))
| step_get k e s : memo_get k (memo s) = Some e -> step_spec (OGet k) s (push e s)
| step_memoize e r s : stack s = IE e :: r ->
    step_spec OMemoize s
      (mkFk (stack s) (memo_put (Z.of_nat (List.length (memo s))) e (memo s)) (nodes s)
            (body s) (ctr s) (stopped s))
| step_noop s : step_spec ONoop s s.

Lemma with_stack_twice s a b : with_stack (with_stack s a) b = with_stack s b.
Proof. reflexivity. Qed.

Theorem step_sound o s s' : step o s = Ok s' -> step_spec o s s'.
Proof.
  intros H. destruct o; cbn [step] in H; fk_inv; eqs; subst; cbn zeta in *;
    rewrite ?setitem_paths in *; unfold get_node in *.
  all: repeat (progress (fk_inv; subst; simp_proj; inv_pairs; crack)).
  all: rewrite ?fold_emit_eq, ?with_stack_twice; simp_proj.
  all: try solve [econstructor; simp_proj; eauto].
  (* left: [step_setitems_var], whose successor is written as a record *)
  cbv [push with_stack]; simp_proj. eapply step_setitems_var; eassumption.
Qed.

Lemma step_halts : forall o s s1, step o s = Ok s1 ->
  o = OStop /\ stopped s1 = true /\ (exists e, body s1 = SResult e :: body s) \/
  o <> OStop /\ stopped s1 = stopped s.
Proof.
  intros o s s1 H. destruct (step_sound _ _ _ H); rewrite ?emit_import_state;
    try (right; split; [discriminate|reflexivity]).
  left. cbn. eauto.
Qed.

Inductive vstep_spec : op -> vm -> vm -> Prop :=
| vstep_const c s : vstep_spec (OConst c) s (vpush' (VConst c) s)
| vstep_mark s : vstep_spec OMark s (with_frames s [] (cur s :: meta s))
| vstep_stop x c s : cur s = x :: c ->
    vstep_spec OStop s (mkVm c (meta s) (vmemo s) (heap s) (log s) (nobj s) (Some x))
| vstep_pop x c s : cur s = x :: c -> vstep_spec OPop s (with_frames s c (meta s))
| vstep_pop_empty p m s : cur s = [] -> meta s = p :: m -> vstep_spec OPop s (with_frames s p m)
| vstep_popmark p m s : meta s = p :: m -> vstep_spec OPopMark s (with_frames s p m)
| vstep_dup x c s : cur s = x :: c -> vstep_spec ODup s (vpush' x s)
| vstep_emptylist s :
    vstep_spec OEmptyList s (vpush' (VRef (List.length (heap s))) (snd (valloc (HList []) s)))
| vstep_emptydict s :
    vstep_spec OEmptyDict s (vpush' (VRef (List.length (heap s))) (snd (valloc (HDict []) s)))
| vstep_emptyset s :
    vstep_spec OEmptySet s (vpush' (VRef (List.length (heap s))) (snd (valloc (HSet []) s)))
| vstep_emptytuple s : vstep_spec OEmptyTuple s (vpush' (VTuple []) s)
| vstep_append x i c xs s :
    cur s = x :: VRef i :: c -> nth_error (heap s) i = Some (HList xs) ->
    vstep_spec OAppend s (vset_obj i (HList (xs ++ [x])) (with_frames s (VRef i :: c) (meta s)))
| vstep_appends i c m xs s :
    meta s = (VRef i :: c) :: m -> nth_error (heap s) i = Some (HList xs) ->
    vstep_spec OAppends s (vset_obj i (HList (xs ++ rev (cur s))) (with_frames s (VRef i :: c) m))
| vstep_list p m s : meta s = p :: m ->
    vstep_spec OList s
      (vpush' (VRef (List.length (heap s))) (snd (valloc (HList (rev (cur s))) (with_frames s p m))))
| vstep_tuple p m s : meta s = p :: m ->
    vstep_spec OTuple s (vpush' (VTuple (rev (cur s))) (with_frames s p m))
| vstep_tuple1 a c s : cur s = a :: c ->
    vstep_spec OTuple1 s (vpush' (VTuple [a]) (with_frames s c (meta s)))
| vstep_tuple2 a b c s : cur s = b :: a :: c ->
    vstep_spec OTuple2 s (vpush' (VTuple [a; b]) (with_frames s c (meta s)))
| vstep_tuple3 a b c0 c s : cur s = c0 :: b :: a :: c ->
    vstep_spec OTuple3 s (vpush' (VTuple [a; b; c0]) (with_frames s c (meta s)))
| vstep_dict p m kvs s :
    meta s = p :: m -> vpairs_of (rev (cur s)) = Ok kvs ->
    forallb (fun kv => hashable (fst kv)) kvs = true ->
    vstep_spec ODict s
      (vpush' (VRef (List.length (heap s))) (snd (valloc (HDict kvs) (with_frames s p m))))
| vstep_setitem_dict x k i c kvs s :
    cur s = x :: k :: VRef i :: c -> nth_error (heap s) i = Some (HDict kvs) -> hashable k = true ->
    vstep_spec OSetItem s
      (vset_obj i (HDict (kvs ++ [(k, x)])) (with_frames s (VRef i :: c) (meta s)))
| vstep_setitem_obj x k d c s :
    cur s = x :: k :: d :: c -> callable d = true ->
    vstep_spec OSetItem s (vlog (EvSetItem d k x) (with_frames s (d :: c) (meta s)))
| vstep_setitems_dict i c m kvs old s :
    meta s = (VRef i :: c) :: m -> vpairs_of (rev (cur s)) = Ok kvs ->
    nth_error (heap s) i = Some (HDict old) -> forallb (fun kv => hashable (fst kv)) kvs = true ->
    vstep_spec OSetItems s (vset_obj i (HDict (old ++ kvs)) (with_frames s (VRef i :: c) m))
| vstep_setitems_obj d c m kvs s :
    meta s = (d :: c) :: m -> vpairs_of (rev (cur s)) = Ok kvs -> callable d = true ->
    vstep_spec OSetItems s
      (mkVm (d :: c) m (vmemo s) (heap s)
            (rev (map (fun kv => EvSetItem d (fst kv) (snd kv)) kvs) ++ log s) (nobj s) (vstopped s))
| vstep_additems i c m xs s :
    meta s = (VRef i :: c) :: m -> nth_error (heap s) i = Some (HSet xs) ->
    forallb hashable (rev (cur s)) = true ->
    vstep_spec OAddItems s (vset_obj i (HSet (xs ++ rev (cur s))) (with_frames s (VRef i :: c) m))
| vstep_frozenset p m s : meta s = p :: m -> forallb hashable (rev (cur s)) = true ->
    vstep_spec OFrozenSet s (vpush' (VFrozen (rev (cur s))) (with_frames s p m))
| vstep_global m n s : plain m && plain n = true ->
    vstep_spec (OGlobal m n) s (vpush' (VGlobal m n) (vlog (EvResolve m n) s))
| vstep_stackglobal ms ns c s :
    cur s = VConst (CStr ns) :: VConst (CStr ms) :: c -> plain ms && plain ns = true ->
    vstep_spec OStackGlobal s
      (vpush' (VGlobal ms ns) (vlog (EvResolve ms ns) (with_frames s c (meta s))))
| vstep_inst m n p mt s : meta s = p :: mt -> plain m && plain n = true ->
    vstep_spec (OInst m n) s
      (called (VGlobal m n) (rev (cur s)) None (vlog (EvResolve m n) (with_frames s p mt)))
| vstep_obj p m k args s : meta s = p :: m -> rev (cur s) = k :: args -> callable k = true ->
    vstep_spec OObj s (called k args None (with_frames s p m))
| vstep_newobj l f c s : cur s = VTuple l :: f :: c -> callable f = true ->
    vstep_spec ONewObj s (called f l None (with_frames s c (meta s)))
| vstep_newobjex i kvs l f c s :
    cur s = VRef i :: VTuple l :: f :: c -> nth_error (heap s) i = Some (HDict kvs) ->
    callable f = true ->
    vstep_spec ONewObjEx s (called f l (Some (VRef i)) (with_frames s c (meta s)))
| vstep_reduce l f c s : cur s = VTuple l :: f :: c -> callable f = true ->
    vstep_spec OReduce s (called f l None (with_frames s c (meta s)))
| vstep_build st inst c s : cur s = st :: inst :: c -> callable inst = true ->
    vstep_spec OBuild s (vlog (EvSetState inst st) (with_frames s (inst :: c) (meta s)))
| vstep_binpersid pid c s : cur s = pid :: c ->
    vstep_spec OBinPersId s
      (vpush' (VObj (nobj s))
              (vlog (EvPersLoad pid (nobj s)) (snd (fresh_obj (with_frames s c (meta s))))))
| vstep_put k x c s : cur s = x :: c -> (k <? 0)%Z = false ->
    vstep_spec (OPut k) s
      (mkVm (cur s) (meta s) (memo_put k x (vmemo s)) (heap s) (log s) (nobj s) (vstopped s))
| vstep_get k x s : memo_get k (vmemo s) = Some x -> vstep_spec (OGet k) s (vpush' x s)
| vstep_memoize x c s : cur s = x :: c ->
    vstep_spec OMemoize s
      (mkVm (cur s) (meta s) (memo_put (Z.of_nat (List.length (vmemo s))) x (vmemo s)) (heap s)
            (log s) (nobj s) (vstopped s))
| vstep_noop s : vstep_spec ONoop s s.

Lemma with_frames_twice s a b c d : with_frames (with_frames s a b) c d = with_frames s c d.
Proof. reflexivity. Qed.

Theorem vstep_sound o s s' : vstep o s = Ok s' -> vstep_spec o s s'.
Proof.
  intros H. destruct o; cbn [vstep] in H; unfold vget_obj in H.
  all: repeat (progress (fk_inv; eqs; subst; simp_proj; vinv_pairs; crack)).
  all: rewrite ?fold_vlog_eq, ?with_frames_twice; simp_proj.
  all: try solve [econstructor; simp_proj; eauto].
Qed.

(* [run_from] and [vrun_from] are this loop, up to conversion *)
Section Loop.
Context {S : Type}.
Variables (halted : S -> bool) (next : op -> S -> res S).

Fixpoint loop (p : list op) (s : S) : res S :=
  match p with
  | [] => Ok s
  | o :: r => if halted s then Ok s else bind (next o s) (loop r)
  end.

Lemma loop_halted p s : halted s = true -> loop p s = Ok s.
Proof. intros H. destruct p; cbn; [|rewrite H]; reflexivity. Qed.

Lemma loop_app p q : forall s, loop (p ++ q) s = bind (loop p s) (loop q).
Proof.
  induction p as [|o p IH]; intros s; cbn; [reflexivity|].
  destruct (halted s) eqn:E; cbn; [rewrite loop_halted; auto|].
  destruct (next o s); cbn; auto.
Qed.

Lemma loop_idle o k r s : (forall x, next o x = Ok x) -> loop (repeat o k ++ r) s = loop r s.
Proof.
  intros N. induction k as [|k IH]; [reflexivity|]. cbn [repeat app loop].
  destruct (halted s) eqn:E; [symmetry; apply loop_halted; exact E|].
  rewrite N. exact IH.
Qed.

(* a step may use that the rest of the run leads to [s'] (wf_run: what it logs is still there) *)
Lemma loop_ind (I : S -> Prop) p s' :
  (forall o s1 s2, In o p -> halted s1 = false -> next o s1 = Ok s2 ->
     (exists q, loop q s2 = Ok s') -> I s1 -> I s2) ->
  forall s, loop p s = Ok s' -> I s -> I s'.
Proof.
  induction p as [|o r IH]; intros K s H Hs; cbn in H.
  - inversion H; subst; exact Hs.
  - destruct (halted s) eqn:E; [inversion H; subst; exact Hs|].
    apply bind_ok in H. destruct H as (s1 & H1 & H).
    apply (IH (fun o' a b Ho => K o' a b (or_intror Ho)) s1 H).
    apply (K o s s1); eauto. left; reflexivity.
Qed.
End Loop.

Section Loop2.
Context {S T : Type}.
Variables (hS : S -> bool) (nS : op -> S -> res S) (hT : T -> bool) (nT : op -> T -> res T).
Variable I : S -> T -> Prop.
Hypothesis I_halt : forall s t, I s t -> hS s = hT t.

Lemma loop2_ind p s' t' :
  (forall o s t s1 t1, In o p -> hS s = false -> I s t -> nS o s = Ok s1 -> nT o t = Ok t1 ->
     (exists q, loop hS nS q s1 = Ok s' /\ loop hT nT q t1 = Ok t') -> I s1 t1) ->
  forall s t, I s t -> loop hS nS p s = Ok s' -> loop hT nT p t = Ok t' -> I s' t'.
Proof.
  induction p as [|o r IH]; intros K s t HI Hs Ht; cbn in Hs, Ht.
  - inversion Hs; inversion Ht; subst; exact HI.
  - rewrite <- (I_halt _ _ HI) in Ht. destruct (hS s) eqn:E.
    + inversion Hs; inversion Ht; subst; exact HI.
    + apply bind_ok in Hs. destruct Hs as (s1 & S1 & Hs).
      apply bind_ok in Ht. destruct Ht as (t1 & T1 & Ht).
      apply (IH (fun o' a b a1 b1 Ho => K o' a b a1 b1 (or_intror Ho)) s1 t1); auto.
      apply (K o s t); eauto. left; reflexivity.
Qed.

Lemma loop_sim :
  (forall o s t s', I s t -> nS o s = Ok s' -> exists t', nT o t = Ok t' /\ I s' t') ->
  forall p s t s', I s t -> loop hS nS p s = Ok s' -> exists t', loop hT nT p t = Ok t' /\ I s' t'.
Proof.
  intros K. induction p as [|o r IH]; intros s t s' E Hs; cbn [loop] in Hs |- *.
  - injection Hs as <-. eauto.
  - rewrite <- (I_halt _ _ E). destruct (hS s).
    + injection Hs as <-. eauto.
    + destruct (nS o s) as [s1|] eqn:S1; [|discriminate Hs].
      destruct (K _ _ _ _ E S1) as (t1 & -> & E1). exact (IH _ _ _ E1 Hs).
Qed.
End Loop2.

Lemma run_app p q s : run_from (p ++ q) s = bind (run_from p s) (run_from q).
Proof. exact (loop_app stopped step p q s). Qed.

Lemma run_cons o r st mm ns bd ct :
  run_from (o :: r) (mkFk st mm ns bd ct false) = bind (step o (mkFk st mm ns bd ct false)) (run_from r).
Proof. reflexivity. Qed.

Lemma run_stopped p s : stopped s = true -> run_from p s = Ok s.
Proof. exact (loop_halted stopped step p s). Qed.

Lemma run_noops k r s : run_from (repeat ONoop k ++ r) s = run_from r s.
Proof. exact (loop_idle stopped step ONoop k r s (fun _ => eq_refl)). Qed.

Lemma vrun_app p q s : vrun_from (p ++ q) s = bind (vrun_from p s) (vrun_from q).
Proof. exact (loop_app is_stopped vstep p q s). Qed.

Lemma vrun_cons o r c me mm h lg k :
  vrun_from (o :: r) (mkVm c me mm h lg k None) = bind (vstep o (mkVm c me mm h lg k None)) (vrun_from r).
Proof. reflexivity. Qed.

Lemma vrun_stopped p s : is_stopped s = true -> vrun_from p s = Ok s.
Proof. exact (loop_halted is_stopped vstep p s). Qed.

Lemma vrun_noops k r s : vrun_from (repeat ONoop k ++ r) s = vrun_from r s.
Proof. exact (loop_idle is_stopped vstep ONoop k r s (fun _ => eq_refl)). Qed.

Lemma not_stopped s : is_stopped s = false -> vstopped s = None.
Proof. unfold is_stopped. destruct (vstopped s); [discriminate | reflexivity]. Qed.

Lemma run_ind (I : fk -> Prop) p s s' :
  (forall o s1 s2, In o p -> stopped s1 = false -> step o s1 = Ok s2 -> I s1 -> I s2) ->
  run_from p s = Ok s' -> I s -> I s'.
Proof. intros K. apply (loop_ind stopped step I p s'). intros o s1 s2 Ho E H _. eauto. Qed.

Lemma vrun_ind (I : vm -> Prop) p s s' :
  (forall o s1 s2, In o p -> vstopped s1 = None -> vstep o s1 = Ok s2 ->
     (exists q, vrun_from q s2 = Ok s') -> I s1 -> I s2) ->
  vrun_from p s = Ok s' -> I s -> I s'.
Proof.
  intros K. apply (loop_ind is_stopped vstep I p s'). intros o s1 s2 Ho E. apply (K o); auto using not_stopped.
Qed.

Lemma run2_ind (I : fk -> vm -> Prop) p :
  (forall f v, I f v -> stopped f = is_stopped v) ->
  (forall o f v f' v', In o p -> vstopped v = None -> I f v ->
     step o f = Ok f' -> vstep o v = Ok v' -> I f' v') ->
  forall f v f' v', I f v -> run_from p f = Ok f' -> vrun_from p v = Ok v' -> I f' v'.
Proof.
  intros Hh K f v f' v'. apply (loop2_ind stopped step is_stopped vstep I Hh p f' v').
  intros o f0 v0 f1 v1 Ho E HI S1 V1 _. apply (K o f0 v0); auto.
  apply not_stopped. rewrite <- (Hh _ _ HI). exact E.
Qed.
