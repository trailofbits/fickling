(* Lockstep simulation.  [R] is a congruence for the state transformers both machines are written
   with (the R_ lemmas), so every opcode both accept preserves [R], extending the environment by at
   most the stand-in it binds ([lockstep_env]), and so does every run ([run_lockstep]).  Hence after
   two runs from the initial states the module body and the event log are aligned ([run_aligned]):
   C03, and what the detection floors and C05 start from. *)
From Coq Require Import List String ZArith Lia.
From Verif Require Import Base BaseProofs Interp RefVM StepFacts SimRel.
Import ListNotations.
Local Open Scope nat_scope.
Local Open Scope list_scope.

Lemma rel_memo_remove al k m m' :
  Forall2 (rel_memo al) m m' -> Forall2 (rel_memo al) (memo_remove k m) (memo_remove k m').
Proof.
  induction 1 as [|[k1 e] [k2 x] l l' [H1 H2] _ IH]; cbn; [constructor|].
  cbn in H1. subst k2. destruct (Z.eqb k k1); [exact IH | constructor; [split; auto | exact IH]].
Qed.

Lemma rel_memo_get al k m m' e x :
  Forall2 (rel_memo al) m m' -> memo_get k m = Some e -> memo_get k m' = Some x -> rel al e x.
Proof.
  induction 1 as [|[k1 e1] [k2 x2] l l' [H1 H2] _ IH]; cbn; [discriminate|].
  cbn in H1. subst k2. destruct (Z.eqb k k1).
  - intros A B. inversion A; inversion B; subst. exact H2.
  - exact IH.
Qed.

Lemma rel_stack_slice al top : forall r c p m,
  rel_stack al (map IE top ++ IMark :: r) c (p :: m) ->
  Forall2 (rel al) top c /\ rel_stack al r p m.
Proof.
  induction top as [|e top IH]; intros r c p m H; cbn in H.
  - inversion H; subst. split; [constructor | assumption].
  - inversion H; subst. apply IH in H5. destruct H5. split; [constructor; assumption | assumption].
Qed.

Lemma rs_inv_nil al c m : rel_stack al [] c m -> c = [] /\ m = [].
Proof. intros H; inversion H; subst; auto. Qed.

Lemma rel_inv_node al i x : rel al (ENode i) x -> x = VRef i.
Proof. intros H; inversion H; reflexivity. Qed.

Lemma rel_inv_const al c x : rel al (EConst c) x -> x = VConst c.
Proof. intros H; inversion H; reflexivity. Qed.

Lemma Rp_mono al al' f v : ext al al' ->
  match vstopped v with
  | None => stopped f = false
  | Some x => stopped f = true /\ exists e b, body f = SResult e :: b /\ rel al e x
  end ->
  vstopped v = None -> stopped f = false.
Proof. intros _ H E. rewrite E in H. exact H. Qed.

(* variables are bound to stand-ins: only a tuple expression denotes a tuple, only a node a reference *)
Lemma rel_tuple_args al args l' :
  Forall (fun y => callable y = true) al -> rel al args (VTuple l') ->
  exists l, args = ETuple l /\ Forall2 (rel al) l l'.
Proof.
  intros Fv H. inversion H; subst; eauto.
  exfalso. pose proof (Forall_nth_error _ _ _ _ Fv H0) as C. discriminate C.
Qed.

Lemma rel_ref al d i : Forall (fun y => callable y = true) al -> rel al d (VRef i) -> d = ENode i.
Proof.
  intros Fv H. inversion H; subst; [reflexivity|].
  exfalso. pose proof (Forall_nth_error _ _ _ _ Fv H0) as C. discriminate C.
Qed.

Lemma pairs_rel al : forall kvs es vs,
  Forall2 (rel al) es vs -> vpairs_of vs = Ok kvs -> Forall2 (rel_pair al) (pairs_of es) kvs.
Proof.
  induction kvs as [|kv kvs IH]; intros es vs F P; destruct vs as [|a [|b vs]];
    cbn [vpairs_of] in P; try discriminate;
    try (apply bind_ok in P; destruct P as (t & P & Q); inversion Q; subst).
  - inversion F. constructor.
  - inversion F as [|e1 ? es1 ? H1 F1]; subst. inversion F1 as [|e2 ? es2 ? H2 F2]; subst.
    cbn [pairs_of]. constructor; [split; assumption | eapply IH; eauto].
Qed.

Lemma rel_events_setitems al i obj : forall kvs kvs' b l,
  nth_error al i = Some obj -> Forall2 (rel_pair al) kvs kvs' -> rel_events al b l ->
  rel_events al (rev (map (fun kv => SSetItemV i (fst kv) (snd kv)) kvs) ++ b)
             (rev (map (fun kv => EvSetItem obj (fst kv) (snd kv)) kvs') ++ l).
Proof.
  intros kvs kvs' b l N F. revert b l. induction F as [|p q kvs kvs' [H1 H2] _ IH]; intros b l E.
  - exact E.
  - cbn. rewrite <- !app_assoc. apply IH. cbn. eapply RE_setitem; eauto.
Qed.

Lemma R_restack al f v r c m :
  R al f v -> rel_stack al r c m -> R al (with_stack f r) (with_frames v c m).
Proof. intros [Rs Rm Rh Re Rc Rv Rp] H. constructor; simp_proj; assumption. Qed.

Lemma R_pop al f v e r x c :
  R al f v -> stack f = IE e :: r -> cur v = x :: c ->
  rel al e x /\ R al (with_stack f r) (with_frames v c (meta v)).
Proof.
  intros HR E C. pose proof (R_stack _ _ _ HR) as Rs. rewrite E, C in Rs. inversion Rs; subst.
  split; [assumption | apply R_restack; assumption].
Qed.

Lemma R_pop_slice al f v top r p m :
  R al f v -> stack f = map IE top ++ IMark :: r -> meta v = p :: m ->
  Forall2 (rel al) (rev top) (rev (cur v)) /\ R al (with_stack f r) (with_frames v p m).
Proof.
  intros HR E M. pose proof (R_stack _ _ _ HR) as Rs. rewrite E, M in Rs.
  apply rel_stack_slice in Rs. destruct Rs as [A B].
  split; [apply Forall2_rev; exact A | apply R_restack; assumption].
Qed.

Lemma R_push al f v e x : rel al e x -> R al f v -> R al (push e f) (vpush' x v).
Proof. intros H HR. apply R_restack; [exact HR | constructor; [exact H | apply HR]]. Qed.

Lemma R_alloc al f v n h :
  rel_node al n h -> R al f v ->
  R al (push (ENode (List.length (nodes f))) (snd (alloc n f)))
       (vpush' (VRef (List.length (heap v))) (snd (valloc h v))).
Proof.
  intros H [Rs Rm Rh Re Rc Rv Rp]. rewrite (Forall2_length _ _ _ Rh).
  constructor; cbn; try assumption.
  - constructor; [constructor | assumption].
  - apply Forall2_app; [assumption | repeat constructor; assumption].
Qed.

Lemma R_node al f v i n h :
  R al f v -> nth_error (nodes f) i = Some n -> nth_error (heap v) i = Some h -> rel_node al n h.
Proof.
  intros HR N H. pose proof (Forall2_nth_error _ _ _ (R_heap _ _ _ HR) i) as F.
  rewrite N, H in F. exact F.
Qed.

Lemma R_set_node al f v i n h : rel_node al n h -> R al f v -> R al (set_node i n f) (vset_obj i h v).
Proof.
  intros H [Rs Rm Rh Re Rc Rv Rp]. constructor; simp_proj; try assumption.
  apply Forall2_set_nth; assumption.
Qed.

Lemma R_dict_at al f v d i kvs' :
  R al f v -> rel al d (VRef i) -> nth_error (heap v) i = Some (HDict kvs') ->
  exists kvs, dict_at d f = Some (i, kvs).
Proof.
  intros HR Hd H. rewrite (rel_ref _ _ _ (R_env _ _ _ HR) Hd). cbn.
  pose proof (Forall2_nth_error _ _ _ (R_heap _ _ _ HR) i) as F. rewrite H in F.
  destruct (nth_error (nodes f) i) as [n|]; [|contradiction]. inversion F; subst. eauto.
Qed.

Lemma R_memo_put al f v k e x :
  rel al e x -> R al f v ->
  R al (mkFk (stack f) (memo_put k e (memo f)) (nodes f) (body f) (ctr f) (stopped f))
       (mkVm (cur v) (meta v) (memo_put k x (vmemo v)) (heap v) (log v) (nobj v) (vstopped v)).
Proof.
  intros H [Rs Rm Rh Re Rc Rv Rp]. constructor; simp_proj; try assumption.
  unfold memo_put. constructor; [split; auto | apply rel_memo_remove; assumption].
Qed.

Lemma R_import al f v m n :
  vstopped v = None -> R al f v -> R al (emit_import m n f) (vlog (EvResolve m n) v).
Proof.
  intros NS [Rs Rm Rh Re Rc Rv Rp]. rewrite NS in Rp. unfold emit_import.
  destruct (is_builtins m) eqn:B; constructor; simp_proj; rewrite ?NS; try assumption.
  - apply RE_builtin; assumption.
  - apply RE_import; assumption.
Qed.

(* [_var = e] binds fickling's next variable to the stand-in [x] on top of the VM's stack; how it and
   the statements [b] after it match the log is the caller's to say, in any environment binding it *)
Lemma R_newvar al f v x e b l n :
  R al f v -> vstopped v = None -> callable x = true ->
  (forall al', ext al al' -> nth_error al' (ctr f) = Some x ->
     rel_events al' (body f) (log v) -> rel_events al' (b ++ SAssignV (ctr f) e :: body f) l) ->
  R (al ++ [x])
    (mkFk (IE (EVar (ctr f)) :: stack f) (memo f) (nodes f) (b ++ SAssignV (ctr f) e :: body f)
          (S (ctr f)) (stopped f))
    (mkVm (x :: cur v) (meta v) (vmemo v) (heap v) l n (vstopped v)).
Proof.
  intros [Rs Rm Rh Re Rc Rv Rp] NS Hc Hev. pose proof (ext_app al x) as X.
  assert (nth_error (al ++ [x]) (ctr f) = Some x) as N by (rewrite Rc; apply nth_error_snoc).
  rewrite NS in Rp. constructor; simp_proj; rewrite ?NS;
    eauto using rel_memo_mono, rel_heap_mono, rel_events_mono.
  - constructor; [constructor; exact N | eapply rel_stack_mono; eauto].
  - rewrite app_length, Rc. cbn. lia.
  - apply Forall_app. split; [assumption | repeat constructor; assumption].
Qed.

Lemma R_call al f v fe args kw f' args' kw' :
  vstopped v = None -> R al f v -> rel al fe f' -> Forall2 (rel al) args args' -> rel_opt al kw kw' ->
  R (al ++ [VObj (nobj v)]) (bind_call (ECall fe args kw) f) (called f' args' kw' v).
Proof.
  intros NS HR Hf Ha Hk. apply (R_newvar al f v (VObj (nobj v)) _ [] _ _ HR NS eq_refl).
  intros al' X N E. eapply RE_call; eauto using rel_mono, rel_list_mono, rel_opt_mono.
Qed.

(* R_pop / R_pop_slice at the states related by [HR]; the stack equations are in the context, or hold
   by computation once something has been popped *)
Ltac pop HR He HR' :=
  edestruct R_pop as [He HR']; [exact HR | reflexivity || eassumption ..|].
Ltac slice HR Hi HR' :=
  edestruct R_pop_slice as [Hi HR']; [exact HR | eassumption ..|].

Lemma lockstep_env o al f v f' v' :
  vstopped v = None -> R al f v -> step o f = Ok f' -> vstep o v = Ok v' ->
  R al f' v' \/ exists x c, cur v' = x :: c /\ R (al ++ [x]) f' v'.
Proof.
  intros NS HR Hs Hv. apply step_sound in Hs. apply vstep_sound in Hv.
  destruct Hs; inversion Hv; subst; clear Hv.
  (* one case per pair of a [step_spec] and a [vstep_spec] constructor of the same opcode, in the order
     of [step_spec]; H, H0, ... are their premises, fickling's first *)
  (* CONST, MARK, STOP *)
  - left. apply R_push; [constructor | exact HR].
  - left. apply R_restack; [exact HR | constructor; apply HR].
  - pop HR He HR1. left. destruct HR1 as [Rs Rm Rh Re Rc Rv _].
    constructor; simp_proj; eauto using RE_result.
  (* POP of a value, POP on an empty frame (the mark goes), POP_MARK, DUP *)
  - pose proof (R_stack _ _ _ HR) as Rs. rewrite H, H0 in Rs. inversion Rs; subst.
    left. apply R_restack; assumption.
  - pose proof (R_stack _ _ _ HR) as Rs. rewrite H, H0, H1 in Rs. inversion Rs; subst.
    left. apply R_restack; assumption.
  - slice HR Hi HR1. left. exact HR1.
  - pop HR He HR1. left. apply R_push; assumption.
  (* EMPTY_LIST, EMPTY_DICT, EMPTY_SET, EMPTY_TUPLE *)
  - left. apply R_alloc; [repeat constructor | exact HR].
  - left. apply R_alloc; [repeat constructor | exact HR].
  - left. apply R_alloc; [repeat constructor | exact HR].
  - left. apply R_push; [repeat constructor | exact HR].
  (* APPEND, APPENDS *)
  - pop HR Hx HR1. pop HR1 Hn HR2. apply rel_inv_node in Hn. injection Hn as ->.
    left. apply R_set_node; [|exact HR1].
    pose proof (R_node _ _ _ _ _ _ HR H0 H2) as N. inversion N; subst. constructor.
    apply Forall2_app; [assumption | repeat constructor; assumption].
  - slice HR Hi HR1. pop HR1 Hn HR2. apply rel_inv_node in Hn. injection Hn as ->.
    left. apply R_set_node; [|exact HR1].
    pose proof (R_node _ _ _ _ _ _ HR H0 H2) as N. inversion N; subst. constructor.
    apply Forall2_app; assumption.
  (* LIST, TUPLE, TUPLE1, TUPLE2, TUPLE3, DICT *)
  - slice HR Hi HR1. left. refine (R_alloc _ _ _ _ _ _ HR1). constructor. exact Hi.
  - slice HR Hi HR1. left. apply R_push; [constructor; exact Hi | exact HR1].
  - pop HR Ha HR1. left. apply R_push; [repeat constructor; assumption | exact HR1].
  - pop HR Hb HR1. pop HR1 Ha HR2. left. apply R_push; [repeat constructor; assumption | exact HR2].
  - pop HR Hc HR1. pop HR1 Hb HR2. pop HR2 Ha HR3.
    left. apply R_push; [repeat constructor; assumption | exact HR3].
  - slice HR Hi HR1. left. refine (R_alloc _ _ _ _ _ _ HR1). constructor. eapply pairs_rel; eassumption.
  (* SETITEM, four cases: the target is a dict for both machines, for one only (impossible: a node
     denotes a reference, and only a node does), or a stand-in for both *)
  - pop HR Hx HR1. pop HR1 Hk HR2. pop HR2 Hd HR3.
    destruct (dict_at_Some _ _ _ _ H0) as [-> N]. apply rel_inv_node in Hd. injection Hd as ->.
    pose proof (R_node _ _ _ _ _ _ HR N H2) as Hn. inversion Hn; subst.
    left. refine (R_set_node al _ _ i _ _ _ HR2). constructor.
    apply Forall2_app; [assumption | repeat constructor; assumption].
  - pop HR Hx HR1. pop HR1 Hk HR2. pop HR2 Hd HR3.
    destruct (dict_at_Some _ _ _ _ H0) as [-> _]. apply rel_inv_node in Hd. subst. discriminate.
  - pop HR Hx HR1. pop HR1 Hk HR2. pop HR2 Hd HR3.
    destruct (R_dict_at _ _ _ _ _ _ HR Hd H2) as (kvs1 & E). congruence.
  - pop HR Hx HR1. pop HR1 Hk HR2. pop HR2 Hd HR3.
    right. eexists _, _. split; [reflexivity|].
    apply (R_newvar al _ _ d0 d [SSetItemV _ k v0] _ _ HR3 NS H2). intros al' X N E.
    eapply RE_setitem; eauto using rel_mono. eapply RE_alias; eauto using rel_mono.
  (* SETITEMS, the same four cases *)
  - slice HR Hi HR1. pop HR1 Hd HR2.
    destruct (dict_at_Some _ _ _ _ H0) as [-> N]. apply rel_inv_node in Hd. injection Hd as ->.
    pose proof (R_node _ _ _ _ _ _ HR N H3) as Hn. inversion Hn; subst.
    left. refine (R_set_node al _ _ i _ _ _ HR1). constructor.
    apply Forall2_app; [assumption | eapply pairs_rel; eassumption].
  - slice HR Hi HR1. pop HR1 Hd HR2.
    destruct (dict_at_Some _ _ _ _ H0) as [-> _]. apply rel_inv_node in Hd. subst. discriminate.
  - slice HR Hi HR1. pop HR1 Hd HR2.
    destruct (R_dict_at _ _ _ _ _ _ HR Hd H3) as (kvs1 & E). congruence.
  - slice HR Hi HR1. pop HR1 Hd HR2.
    right. eexists _, _. split; [reflexivity|].
    apply (R_newvar al _ _ d0 d _ _ _ HR2 NS H3). intros al' X N E.
    apply rel_events_setitems; [exact N | | eapply RE_alias; eauto using rel_mono].
    eapply rel_pairs_mono; [exact X|]. eapply pairs_rel; eassumption.
  (* ADDITEMS, FROZENSET *)
  - slice HR Hi HR1. pop HR1 Hn HR2. apply rel_inv_node in Hn. injection Hn as ->.
    left. apply R_set_node; [|exact HR1].
    pose proof (R_node _ _ _ _ _ _ HR H0 H2) as N. inversion N; subst. constructor.
    apply Forall2_app; assumption.
  - slice HR Hi HR1. left. apply R_push; [constructor; exact Hi | exact HR1].
  (* GLOBAL, STACK_GLOBAL *)
  - left. apply R_push; [constructor | apply R_import; assumption].
  - pop HR Hn HR1. pop HR1 Hm HR2. apply rel_inv_const in Hn, Hm. injection Hn as ->. injection Hm as ->.
    left. apply R_push; [constructor | apply R_import; assumption].
  (* the calls INST, OBJ, NEWOBJ, NEWOBJ_EX, REDUCE; then BUILD, BINPERSID *)
  - slice HR Hi HR1. right. eexists _, _. split; [reflexivity|].
    apply R_call; auto using R_import; [constructor | exact I].
  - slice HR Hi HR1. rewrite H0, H2 in Hi. inversion Hi; subst.
    right. eexists _, _. split; [reflexivity|]. apply R_call; auto. exact I.
  - pop HR Ha HR1. pop HR1 Hf HR2.
    destruct (rel_tuple_args _ _ _ (R_env _ _ _ HR) Ha) as (l0 & -> & Hl).
    right. eexists _, _. split; [reflexivity|]. apply R_call; auto. exact I.
  - pop HR Hk HR1. pop HR1 Ha HR2. pop HR2 Hf HR3.
    destruct (rel_tuple_args _ _ _ (R_env _ _ _ HR) Ha) as (l0 & -> & Hl).
    right. eexists _, _. split; [reflexivity|]. apply R_call; auto.
  - pop HR Ha HR1. pop HR1 Hf HR2.
    destruct (rel_tuple_args _ _ _ (R_env _ _ _ HR) Ha) as (l0 & -> & Hl).
    right. eexists _, _. split; [reflexivity|]. apply R_call; auto. exact I.
  - pop HR Hst HR1. pop HR1 Hi HR2. right. eexists _, _. split; [reflexivity|].
    apply (R_newvar al _ _ inst obj [SExpr _] _ _ HR2 NS H1). intros al' X N E.
    eapply RE_setstate; eauto using rel_mono. eapply RE_alias; eauto using rel_mono.
  - pop HR Hp HR1. right. eexists _, _. split; [reflexivity|].
    apply (R_newvar al _ _ (VObj (nobj v)) _ [] _ _ HR1 NS eq_refl). intros al' X N E.
    eapply RE_pers; eauto using rel_mono.
  (* PUT, GET, MEMOIZE, NOOP *)
  - pop HR He HR1. left. apply R_memo_put; assumption.
  - left. apply R_push; [|exact HR]. exact (rel_memo_get _ _ _ _ _ _ (R_memo _ _ _ HR) H H1).
  - pop HR He HR1. left. rewrite (Forall2_length _ _ _ (R_memo _ _ _ HR)). apply R_memo_put; assumption.
  - left. exact HR.
Qed.

Theorem lockstep o al f v f' v' :
  vstopped v = None -> R al f v -> step o f = Ok f' -> vstep o v = Ok v' ->
  exists al', ext al al' /\ R al' f' v'.
Proof.
  intros NS HR Hs Hv.
  destruct (lockstep_env _ _ _ _ _ _ NS HR Hs Hv) as [H | (x & c & _ & H)].
  - exists al. split; [apply ext_refl | exact H].
  - exists (al ++ [x]). split; [apply ext_app | exact H].
Qed.

Lemma R_stopped_agree al f v : R al f v -> stopped f = is_stopped v.
Proof.
  intros [_ _ _ _ _ _ Rp]. unfold is_stopped. destruct (vstopped v); [destruct Rp; assumption | assumption].
Qed.

Theorem run_lockstep : forall p al f v f' v',
  R al f v -> run_from p f = Ok f' -> vrun_from p v = Ok v' ->
  exists al', ext al al' /\ R al' f' v'.
Proof.
  intros p al f v f' v' HR.
  apply (run2_ind (fun f v => exists al', ext al al' /\ R al' f v) p).
  - intros f0 v0 (al' & _ & HR'). exact (R_stopped_agree _ _ _ HR').
  - intros o f0 v0 f1 v1 _ NS (al1 & X1 & R1) S1 V1.
    destruct (lockstep _ _ _ _ _ _ NS R1 S1 V1) as (al2 & X2 & R2).
    exists al2. split; [eapply ext_trans; eauto | exact R2].
  - exists al. split; [apply ext_refl | exact HR].
Qed.

Definition covered (al : env) (b : list stmt) (ev : event) : Prop :=
  match ev with
  | EvResolve m n => is_builtins m = false -> In (SImport m n) b
  | EvCall f' args' kw' k =>
      exists i f args kw, In (SAssignV i (ECall f args kw)) b /\
        rel al f f' /\ Forall2 (rel al) args args' /\ rel_opt al kw kw' /\ nth_error al i = Some (VObj k)
  | EvSetState obj st' =>
      exists i st, In (SExpr (ECall (EAttr (EVar i) "__setstate__") [st] None)) b /\
                   nth_error al i = Some obj /\ rel al st st'
  | _ => True
  end.

Lemma covered_cons al s b ev : covered al b ev -> covered al (s :: b) ev.
Proof.
  destruct ev; cbn; auto.
  - intros (i & fe & a & kw1 & Hi & H). exists i, fe, a, kw1. split; [right; exact Hi | exact H].
  - intros (i & st1 & Hi & H). exists i, st1. split; [right; exact Hi | exact H].
Qed.

Lemma events_covered al b l : rel_events al b l -> forall ev, In ev l -> covered al b ev.
Proof.
  induction 1; intros ev Hin; try (destruct Hin as [<-|Hin]; [|apply covered_cons; auto]);
    try (apply covered_cons; auto; fail); cbn [covered].
  - contradiction.
  - left; reflexivity.
  - destruct Hin as [<-|Hin]; [cbn [covered]; congruence | auto].
  - exists i, f, args, kw. cbn. auto 7.
  - exact I.
  - exists i, st. cbn. auto.
  - exact I.
Qed.

Lemma events_imports_sound al b l :
  rel_events al b l -> forall m n, In (SImport m n) b -> In (EvResolve m n) l /\ is_builtins m = false.
Proof.
  induction 1; intros m0 n0 Hin; cbn in Hin.
  1: contradiction.
  1: destruct Hin as [E|Hin]; [injection E as <- <-; split; [left; reflexivity | assumption]|].
  (* every other constructor puts something else, or nothing, in front of the body *)
  all: try (destruct Hin as [E|Hin]; [discriminate|]).
  all: destruct (IHrel_events _ _ Hin); split; auto using in_cons.
Qed.

Definition init_env (first_var : nat) : env := repeat (VGlobal "" "") first_var.

Lemma R_init n : R (init_env n) (fk_init n) vm_init.
Proof.
  constructor; cbn; try constructor.
  - unfold init_env. rewrite repeat_length. reflexivity.
  - unfold init_env. apply Forall_forall. intros x Hx. apply repeat_spec in Hx. subst. reflexivity.
Qed.

Lemma run_aligned p n f' v' :
  run_from p (fk_init n) = Ok f' -> vrun_from p vm_init = Ok v' ->
  exists al, rel_events al (body f') (log v') /\ Forall (fun y => callable y = true) al.
Proof.
  intros Hs Hv. destruct (run_lockstep p _ _ _ _ _ (R_init n) Hs Hv) as (al & _ & HR).
  exists al. split; apply HR.
Qed.

Lemma resolved_is_imported p first_var s v m n :
  run_from p (fk_init first_var) = Ok s -> vrun_from p vm_init = Ok v ->
  In (EvResolve m n) (log v) -> is_builtins m = false -> In (SImport m n) (body s).
Proof.
  intros Hs Hv Hin. destruct (run_aligned p _ s v Hs Hv) as (al & Re & _).
  exact (events_covered _ _ _ Re _ Hin).
Qed.
